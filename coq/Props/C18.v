(** C18 — Async API: no lost wakeups, cancellation-safe, clean teardown.
    Property theorems only, each closed by [exact] of a lemma proved under Proofs/ and, two
    [Example]s apart, followed by [Print Assumptions]. Models: Model/AsyncConn.v (connection: steps = whole critical sections of
    the connection mutex) and Model/AsyncEndpoint.v (endpoint); tied to the code by the asyncsim
    trace monitor Sys/MonC18.v on every run. [run ls] = fold_left step' ls init: ALL schedules of
    application polls, future drops, driver polls with arbitrary event lists, closes, stream calls,
    handle clones and drops. [ok ls] excludes exactly the known class [stopped-after-reset]
    (a driver event [PResetAcked]), for which [C18_no_lost_wakeup_refuted] is the witness. *)
From QV Require Import Lib.Tac Model.AsyncConn Proofs.AsyncConnInv Proofs.AsyncConnFacts Proofs.AsyncConnMain Proofs.AsyncConnIoError.
From QV Require Import Model.AsyncEndpoint Proofs.AsyncEndpointProofs.

(** * The inductive invariant holds in every reachable state (all schedules, unbounded) *)
Theorem C18_invariant : forall ls, ok ls -> Inv (run ls).
Proof. exact Inv_run. Qed.
Print Assumptions C18_invariant.

(** * no lost wake-up: a pending operation whose condition holds has a runnable task *)
Theorem C18_no_lost_wakeup : forall ls, ok ls -> forall t o,
  pend (run ls) t = Some o -> cond (run ls) o = true -> runnable (run ls) t = true.
Proof. exact no_lost_wakeup. Qed.
Print Assumptions C18_no_lost_wakeup.

Theorem C18_driver_no_lost_wakeup : forall ls, ok ls ->
  driver_alive (run ls) = true -> drv_work (run ls) = true -> drv_runnable (run ls) = true.
Proof. exact driver_no_lost_wakeup. Qed.
Print Assumptions C18_driver_no_lost_wakeup.

(** * close wakes everyone: [State::terminate], [Connection::close], [Event::ConnectionLost] *)
Theorem C18_close_wakes_everyone : forall ls, ok ls -> forall code t o,
  pend (terminate (run ls) code) t = Some o -> runnable (terminate (run ls) code) t = true.
Proof. exact close_wakes_everyone. Qed.
Print Assumptions C18_close_wakes_everyone.

Theorem C18_close_wakes_everyone_AppClose : forall ls, ok ls -> (0 < nhandles (run ls))%Z -> forall t o,
  pend (step' (run ls) AppClose) t = Some o -> runnable (step' (run ls) AppClose) t = true.
Proof. exact close_wakes_everyone_AppClose. Qed.
Print Assumptions C18_close_wakes_everyone_AppClose.

Theorem C18_close_wakes_everyone_PLost : forall ls, ok ls -> driver_alive (run ls) = true -> forall code t o,
  pend (step' (run ls) (DrvPoll [PLost code])) t = Some o ->
  runnable (step' (run ls) (DrvPoll [PLost code])) t = true.
Proof. exact close_wakes_everyone_PLost. Qed.
Print Assumptions C18_close_wakes_everyone_PLost.

(** * cancellation: nothing received is lost or duplicated, whatever is dropped and when *)
Theorem C18_cancel_safe_ops_lose_nothing : forall ls, ok ls ->
  (forall k, discarded (run ls) k = false -> arrived (run ls) k = delivered (run ls) k ++ rx (run ls) k) /\
  d_arrived (run ls) = d_delivered (run ls) ++ dq (run ls).
Proof. exact cancel_safe_ops_lose_nothing. Qed.
Print Assumptions C18_cancel_safe_ops_lose_nothing.

Theorem C18_drop_leaves_no_notify_registration : forall ls t, ok ls ->
  forall n, nwait (step' (run ls) (AppDrop t)) n t = false.
Proof. exact drop_leaves_no_notify_registration. Qed.
Print Assumptions C18_drop_leaves_no_notify_registration.

Theorem C18_drop_then_fresh_poll_same_result : forall s t o n,
  poll_ok s t o n = true ->
  snd (step (step' s (AppDrop t)) (AppPoll t o n)) = snd (step s (AppPoll t o n)).
Proof. exact drop_then_fresh_poll_same_result. Qed.
Print Assumptions C18_drop_then_fresh_poll_same_result.

(** the [debug_assert!] in [RecvStream::drop] cannot fire *)
Theorem C18_recv_drop_assert : forall ls k, ok ls ->
  all_read (run ls) k = true -> aget (br (run ls)) k = None.
Proof. exact recv_drop_assert. Qed.
Print Assumptions C18_recv_drop_assert.

(** * reference counting *)
Theorem C18_refcount_tracks_handles : forall ls, ok ls ->
  (driver_alive (run ls) = true -> refcnt (run ls) = nhandles (run ls)) /\
  (driver_alive (run ls) = false -> refcnt (run ls) = (nhandles (run ls) - 1)%Z).
Proof. exact refcount_tracks_handles. Qed.
Print Assumptions C18_refcount_tracks_handles.

(** * implicit teardown: dropping the last handle closes the connection *)
Theorem C18_last_handle_drop_closes : forall ls, ok ls ->
  driver_alive (run ls) = true -> nhandles (run ls) = 1%Z ->
  closed (step' (run ls) HDropConn) = true /\ inner_closed (step' (run ls) HDropConn) = true.
Proof. exact last_handle_drop_closes. Qed.
Print Assumptions C18_last_handle_drop_closes.

Theorem C18_last_handle_drop_closes_recv : forall ls k, ok ls ->
  driver_alive (run ls) = true -> nhandles (run ls) = 1%Z ->
  recv_h (run ls) k = true -> rborrow (run ls) k = None ->
  closed (step' (run ls) (HDropRecv k)) = true /\ inner_closed (step' (run ls) (HDropRecv k)) = true.
Proof. exact last_handle_drop_closes_recv. Qed.
Print Assumptions C18_last_handle_drop_closes_recv.

Theorem C18_last_handle_drop_closes_send : forall ls k, ok ls ->
  driver_alive (run ls) = true -> nhandles (run ls) = 1%Z ->
  send_h (run ls) k = true -> wborrow (run ls) k = None ->
  closed (step' (run ls) (HDropSend k)) = true /\ inner_closed (step' (run ls) (HDropSend k)) = true.
Proof. exact last_handle_drop_closes_send. Qed.
Print Assumptions C18_last_handle_drop_closes_send.

(** * close wakes everyone (single-step parts; the run-level part is below) *)
Theorem C18_closed_poll_never_pends : forall s t o n,
  closed s = true -> snd (app_poll s t o n) <> Pending.
Proof. exact closed_poll_never_pends. Qed.
Print Assumptions C18_closed_poll_never_pends.

Theorem C18_closed_poll_errors : forall s t o n r,
  closed s = true -> snd (app_poll s t o n) = Ready r ->
  match o with
  | OWrite _ | OOpen _ | OSendDgram | OAuth | OHsConf => r = RErr
  | OClosed => r = ROk
  | OConnect => r = ROk \/ r = RErr
  | OAccept _ => (exists k, r = RStream k) \/ r = RErr
  | ORead _ => (exists l, r = RData l) \/ r = REnd \/ r = RErr
  | OStopped _ => r = ROk \/ r = RErr
  | ORecvDgram => (exists d, r = RDgram d) \/ r = RErr
  end.
Proof. exact closed_poll_errors. Qed.
Print Assumptions C18_closed_poll_errors.

Theorem C18_closed_is_stable : forall s l, closed s = true -> closed (step' s l) = true.
Proof. exact closed_is_stable. Qed.
Print Assumptions C18_closed_is_stable.

(** * cancellation *)
Theorem C18_drop_changes_no_protocol_state : forall s t, proto_eq (step' s (AppDrop t)) s.
Proof. exact drop_changes_no_protocol_state. Qed.
Print Assumptions C18_drop_changes_no_protocol_state.

Theorem C18_drop_leaves_stale_stream_waker_witness : exists ls t k,
  pend (run ls) t = None /\ aget (br (run ls)) k = Some t.
Proof. exact drop_leaves_stale_stream_waker_witness. Qed.
Print Assumptions C18_drop_leaves_stale_stream_waker_witness.

Theorem C18_stale_waker_cleared_by_handle_drop : forall s k,
  rborrow s k = None -> recv_h s k = true -> all_read s k = false ->
  aget (br (step' s (HDropRecv k))) k = None.
Proof. exact stale_waker_cleared_by_handle_drop. Qed.
Print Assumptions C18_stale_waker_cleared_by_handle_drop.

Theorem C18_stale_writer_waker_cleared_by_handle_drop : forall s k,
  wborrow s k = None -> send_h s k = true ->
  aget (bw (step' s (HDropSend k))) k = None.
Proof. exact stale_writer_waker_cleared_by_handle_drop. Qed.
Print Assumptions C18_stale_writer_waker_cleared_by_handle_drop.

(** * implicit teardown (single-step parts) *)
Theorem C18_recv_drop_stops : forall s k,
  recv_h s k = true -> rborrow s k = None -> all_read s k = false -> closed s = false ->
  rx_end (step' s (HDropRecv k)) k = true /\ rx (step' s (HDropRecv k)) k = [] \/ closed (step' s (HDropRecv k)) = true.
Proof. exact recv_drop_stops. Qed.
Print Assumptions C18_recv_drop_stops.

Theorem C18_send_drop_finishes : forall s k,
  send_h s k = true -> wborrow s k = None -> closed s = false ->
  w_end (step' s (HDropSend k)) k = true.
Proof. exact send_drop_finishes. Qed.
Print Assumptions C18_send_drop_finishes.

Theorem C18_driver_exits_when_drained : forall s evs,
  driver_alive s = true ->
  drained (fold_left drv_event evs (set_drv s true false false (drv_work s))) = true ->
  driver_alive (drv_poll s evs) = false.
Proof. exact driver_exits_when_drained. Qed.
Print Assumptions C18_driver_exits_when_drained.

Theorem C18_drained_releases_endpoint_entry : forall s,
  closed s = true -> ep_entry (drv_event s PDrained) = false /\ drained (drv_event s PDrained) = true.
Proof. exact drained_releases_endpoint_entry. Qed.
Print Assumptions C18_drained_releases_endpoint_entry.

(** * refuted parts (faithful model of the code) *)
Theorem C18_no_lost_wakeup_refuted : exists ls t o,
  pend (run ls) t = Some o /\ cond (run ls) o = true /\ runnable (run ls) t = false.
Proof. exact no_lost_wakeup_refuted. Qed.
Print Assumptions C18_no_lost_wakeup_refuted.

Theorem C18_refcount_zero_with_live_handle_witness : exists ls,
  refcnt (run ls) = 0%Z /\ nhandles (run ls) = 1%Z /\ driver_alive (run ls) = false.
Proof. exact refcount_zero_with_live_handle_witness. Qed.
Print Assumptions C18_refcount_zero_with_live_handle_witness.

Example C18_two_readers_one_waker_slot :
  let s0 := run [DrvPoll [POpened false 3 [] false]; AppPoll 0 (OAccept false) 0] in
  let s2 := drv_event (register (register s0 1 (ORead 3)) 2 (ORead 3)) (PData 3 [7%Z] false) in
  pend s2 1 = Some (ORead 3) /\ cond s2 (ORead 3) = true /\ runnable s2 1 = false.
Proof. exact two_readers_one_waker_slot. Qed.

(** * the driver's exit on a socket error (finding fixed by /repo 914a185) *)
Theorem C18_io_error_preserves_invariant : forall s, Inv s -> Inv (drv_io_error s).
Proof. exact io_error_preserves_invariant. Qed.
Print Assumptions C18_io_error_preserves_invariant.

Theorem C18_io_error_wakes_everyone : forall ls, ok ls -> driver_alive (run ls) = true -> forall t o,
  pend (drv_io_error (run ls)) t = Some o -> runnable (drv_io_error (run ls)) t = true.
Proof. exact io_error_wakes_everyone. Qed.
Print Assumptions C18_io_error_wakes_everyone.

Theorem C18_io_error_unfixed_refuted : exists ls t o,
  let s := drv_io_error_unfixed (run ls) in
  pend s t = Some o /\ runnable s t = false /\ closed s = false /\ driver_alive s = false /\
  (0 < nhandles s)%Z.
Proof. exact io_error_unfixed_refuted. Qed.
Print Assumptions C18_io_error_unfixed_refuted.

(** * Endpoint half (Model/AsyncEndpoint.v): Accept, wait_idle, Endpoint::close, driver exit *)
Theorem C18_endpoint_no_lost_wakeup : forall ls t o,
  e_pend (erun ls) t = Some o -> econd (erun ls) o = true -> e_run (erun ls) t = true.
Proof. exact endpoint_no_lost_wakeup. Qed.
Print Assumptions C18_endpoint_no_lost_wakeup.

Theorem C18_endpoint_driver_exit_not_missed : forall ls,
  e_alive (erun ls) = true -> e_refs (erun ls) = 0%Z -> e_conns (erun ls) = 0 -> e_drun (erun ls) = true.
Proof. exact endpoint_driver_exit_not_missed. Qed.
Print Assumptions C18_endpoint_driver_exit_not_missed.

Theorem C18_endpoint_driver_exits : forall s,
  e_alive s = true -> e_refs s = 0%Z -> e_conns s = 0 ->
  e_alive (edrv_poll s []) = false /\ e_lost (edrv_poll s []) = true.
Proof. exact endpoint_driver_exits. Qed.
Print Assumptions C18_endpoint_driver_exits.

Theorem C18_endpoint_close_wakes_accept : forall ls t,
  e_pend (estep' (erun ls) LClose) t = Some EAccept -> e_run (estep' (erun ls) LClose) t = true.
Proof. exact endpoint_close_wakes_accept. Qed.
Print Assumptions C18_endpoint_close_wakes_accept.

Theorem C18_endpoint_closed_accept_never_pends : forall s t,
  e_close s = true -> snd (epoll s t EAccept) <> EPending.
Proof. exact endpoint_closed_accept_never_pends. Qed.
Print Assumptions C18_endpoint_closed_accept_never_pends.

Theorem C18_endpoint_drop_changes_nothing : forall s t,
  let s' := estep' s (LDrop t) in
  e_incoming s' = e_incoming s /\ e_close s' = e_close s /\ e_conns s' = e_conns s /\ e_refs s' = e_refs s
  /\ e_winc s' t = false /\ e_widle s' t = false.
Proof. exact endpoint_drop_changes_nothing. Qed.
Print Assumptions C18_endpoint_drop_changes_nothing.

Example C18_endpoint_teardown :
  let s := erun [LConnect; LPoll 1 EWaitIdle; LDrv []; LHandleDrop; LDrv [VDrained]] in
  e_alive s = false /\ e_lost s = true /\ e_run s 1 = true /\ e_refs s = (-1)%Z.
Proof. exact endpoint_teardown. Qed.
