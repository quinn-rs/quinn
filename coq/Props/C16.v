(** C16 — Unreliable datagrams: intact, at most once, never oversized.  COMPONENT LEVEL
    ([DatagramState] and the [Datagrams] API arithmetic; the two-peer system statement is added
    by the simulator level).  Property theorems only, each read off a lemma of
    Proofs/DatagramProofs.v; the examples at the end are closed by evaluation.
    Model: Model/DatagramState.v, tied to quinn-proto/src/connection/datagrams.rs on every run by
    the `datagrams` correspondence (real [DatagramState] inside a real [Connection]).

    [exec c init h0 ops] runs an arbitrary operation sequence from the empty state and records
    the ghost history [h]: payloads accepted by [received] ([acc_in]), returned by [recv]
    ([delivered]), accepted by [send] ([acc_out]) and emitted by [write] ([written]).
    [run_ok]: the path MTU always leaves room for one empty packet (otherwise [max_size]
    underflows, see [C16_max_size_underflow_recorded]) and [send_buffer_size < 2^62]. *)
From QV Require Import Lib.Tac Lib.Bytes Lib.Corr gen.Constants Model.Varint Model.DatagramState
  Proofs.DatagramProofs.
Open Scope Z_scope.

(** datagrams_intact_fifo: for ALL op sequences, what [recv] returned followed by what is still
    queued is a subsequence of the accepted [received] payloads — every delivered payload is
    byte-identical to a distinct accepted one, in order, at most once; likewise [write] emits
    payloads of accepted sends in order, each at most once.  No panic, no hang. *)
Theorem C16_datagrams_intact_fifo : forall c ops,
  run_ok c ops ->
  exists c' s' h', exec c init h0 ops = Ok (c', s', h') /\
    subseq (delivered h' ++ incoming s') (acc_in h') /\
    subseq (written h' ++ outgoing s') (acc_out h').
Proof.
  intros c ops H. destruct (run_ginv c ops H) as (c' & s' & h' & He & (_ & _ & Hin & Hout) & _).
  exists c', s', h'. auto.
Qed.
Print Assumptions C16_datagrams_intact_fifo.

(** buffer_accounting: for ALL op sequences the byte counters equal the sums of the queued
    payload lengths (so no subtraction underflows), the send queue never exceeds the configured
    bound and the space query is exactly the difference. *)
Theorem C16_buffer_accounting : forall c ops,
  run_ok c ops ->
  exists c' s' h', exec c init h0 ops = Ok (c', s', h') /\
    outgoing_total s' = sum_len (outgoing s') /\
    recv_buffered s' = sum_len (incoming s') /\
    0 <= outgoing_total s' <= send_buf c /\ 0 <= recv_buffered s' /\
    send_buffer_space c' s' = send_buf c - outgoing_total s'.
Proof. exact buffer_accounting. Qed.
Print Assumptions C16_buffer_accounting.

Theorem C16_reachable_states_accounted : forall c ops c' s' h',
  run_ok c ops -> exec c init h0 ops = Ok (c', s', h') ->
  Inv s' /\ sum_len (outgoing s') <= send_buf c.
Proof.
  intros c ops c' s' h' H He. destruct (run_ginv c ops H) as (c2 & s2 & h2 & He2 & (HI & Hb & _) & _).
  rewrite He in He2. injection He2 as _ <- _. auto.
Qed.
Print Assumptions C16_reachable_states_accounted.

(** overflow_drops_oldest (receive side): an accepted datagram evicts a PREFIX [pre] of the
    queue — the oldest — keeps the newest at the back, evicts no more than necessary, and the
    buffered bytes stay within the window. *)
Theorem C16_receive_overflow_drops_oldest : forall s d x,
  Inv s -> zlen d <= x ->
  exists s' pre kept,
    received s d (Some x) = Ok (s', Some (recv_buffered s =? 0)) /\
    incoming s = pre ++ kept /\ incoming s' = kept ++ [d] /\
    recv_buffered s' = sum_len (incoming s') /\ recv_buffered s' <= x /\
    (forall p1 y p2, pre = p1 ++ y :: p2 -> x < zlen d + sum_len (y :: p2 ++ kept)).
Proof.
  intros s d x HI Hx.
  destruct (receive_accepts s d x HI Hx) as (s' & pre & kept & E & [_ Hi'] & _ & Ha & Hb & Hc & Hd).
  exists s', pre, kept. repeat split; assumption.
Qed.
Print Assumptions C16_receive_overflow_drops_oldest.

(** A DATAGRAM frame without a receive window, or larger than it, is a PROTOCOL_VIOLATION and
    leaves the state untouched. *)
Theorem C16_receive_rejects : forall s d w,
  (match w with None => True | Some x => x < zlen d end) -> received s d w = Ok (s, None).
Proof. exact receive_rejects. Qed.
Print Assumptions C16_receive_rejects.

(** send_admission_exact + overflow_drops_oldest (send side).  The result code is exactly the
    table; [S_OK] iff enabled, supported, [len <= min(max_size, send_buffer_size)] and ([drop]
    or the datagram fits beside what is queued); on [S_OK] the evicted [pre] is a prefix (empty
    unless [drop]), no more than necessary, and the new datagram is at the back. *)
Theorem C16_send_admission_exact : forall c s d drop,
  Inv s -> ctx_ok c -> send_buf c <= USIZE_MAX ->
  exists s' code, send c s d drop = Ok (s', code) /\ Inv s' /\
    code = match recv_buf c with
           | None => S_DISABLED
           | Some _ =>
               match max_size c with
               | Ok (Some mx) =>
                   if Z.min mx (send_buf c) <? zlen d then S_TOOLARGE
                   else if drop || (outgoing_total s + zlen d <=? send_buf c) then S_OK
                   else S_BLOCKED
               | _ => S_UNSUPPORTED
               end
           end /\
    (code = S_OK ->
       exists pre kept, outgoing s = pre ++ kept /\ outgoing s' = kept ++ [d] /\
         (drop = false -> pre = []) /\
         (forall p1 x p2, pre = p1 ++ x :: p2 ->
            has_space (sum_len (x :: p2 ++ kept)) (zlen d) (send_buf c) = false) /\
         incoming s' = incoming s /\ send_blocked s' = send_blocked s) /\
    (code <> S_OK -> outgoing s' = outgoing s /\ incoming s' = incoming s /\
                     send_blocked s' = (send_blocked s || (code =? S_BLOCKED))) /\
    (sum_len (outgoing s) <= send_buf c -> sum_len (outgoing s') <= send_buf c).
Proof. exact send_spec. Qed.
Print Assumptions C16_send_admission_exact.

(** max_size_fits, instantiated with the generated [Datagram::SIZE_BOUND]: the reported maximum
    plus frame bound plus predicted 1-RTT overhead fits the current MTU and respects the peer's
    [max_datagram_frame_size]. *)
Theorem C16_max_size_fits : forall c,
  overhead c + DATAGRAM_SIZE_BOUND <= mtu c ->
  match peer_max c with
  | None => max_size c = Ok None
  | Some p =>
      exists v, max_size c = Ok (Some v) /\ 0 <= v /\
                v + DATAGRAM_SIZE_BOUND + overhead c <= mtu c /\
                (DATAGRAM_SIZE_BOUND <= p -> v <= p - DATAGRAM_SIZE_BOUND) /\
                (p < DATAGRAM_SIZE_BOUND -> v = 0)
  end.
Proof. exact (max_size_fits_gen DATAGRAM_SIZE_BOUND). Qed.
Print Assumptions C16_max_size_fits.

(** [write] emits exactly the frame of the head payload (type 0x31, varint length, bytes), only
    if it fits the space left, and removes exactly that datagram. *)
Theorem C16_write_exact : forall s bl mx,
  Inv s -> sum_len (outgoing s) < 2 ^ 62 ->
  match outgoing s with
  | [] => write s bl mx = Ok (s, None)
  | d :: r =>
      exists sz enc, frame_size d = Some sz /\ frame_encode d = Some enc /\ zlen enc = sz /\
        if mx <? bl + sz then write s bl mx = Ok (s, None)
        else exists s', write s bl mx = Ok (s', Some enc) /\ outgoing s' = r /\
                        outgoing_total s' = sum_len r /\ incoming s' = incoming s
  end.
Proof.
  intros s bl mx HI Hb. pose proof (write_spec s bl mx HI Hb) as H.
  destruct (outgoing s) as [|d r]; [exact H|].
  destruct H as (sz & enc & H1 & H2 & H3 & H4). exists sz, enc. repeat (split; [assumption|]).
  destruct (mx <? bl + sz); [exact H4|].
  destruct H4 as (s' & Hw & [Ho _] & Hr & Hi). exists s'. rewrite Hr in Ho. auto.
Qed.
Print Assumptions C16_write_exact.

(** Boundary asymmetry, recorded exactly as the code has it: [send] admits [len <= max] while
    [drop_oversized max] keeps only [len < max] — a queued datagram of exactly the new maximum
    size is discarded on black-hole fallback although it would fit (allowed: datagrams may be
    dropped; noted as an observation, not a violation). *)
Theorem C16_drop_oversized_exact : forall s mp,
  Inv s ->
  exists s', drop_oversized s mp =
               Ok (s', negb (Nat.eqb (length (outgoing s')) (length (outgoing s)))) /\
    outgoing s' = filter (fun d => zlen d <? mp) (outgoing s) /\
    outgoing_total s' = sum_len (outgoing s') /\ incoming s' = incoming s.
Proof.
  intros s mp HI. destruct (drop_oversized_spec s mp HI) as (s' & H1 & [H2 _] & H3 & H4).
  exists s'. auto.
Qed.
Print Assumptions C16_drop_oversized_exact.

Example C16_boundary_asymmetry_recorded :
  let c := mkCtx (Some 100) 100 (Some 12) 1200 8 in
  max_size c = Ok (Some 3) /\
  exists s, send c init [1; 2; 3] false = Ok (s, S_OK) /\
            drop_oversized s 3 = Ok (init, true).
Proof. vm_compute. split; [reflexivity|]. eexists. split; reflexivity. Qed.

(** The documented usize underflow of [max_size] when the MTU cannot hold an empty packet
    (unreachable behind [Connection]: the MTU estimate is at least min(min_mtu >= 1200, peer
    max_udp_payload_size >= 1200) by C13's mtu_floor). *)
Example C16_max_size_underflow_recorded :
  max_size (mkCtx (Some 100) 100 (Some 1200) 37 8) = Panic.
Proof. vm_compute. reflexivity. Qed.

(** Non-vacuity: a run with an eviction on both sides, a delivery and a written frame. *)
Example C16_example :
  DatagramState.run [[0; 4; 4; 1000; 1200; 8]; [4; 4; 1; 2; 3]; [4; 4; 9; 9]; [5];
                     [1; 1; 5; 6; 7]; [1; 1; 8; 8]; [3; 0; 1000]]
  = [[0; 0; 0; 0; 0; 0]; [0; 0; 0; 3; 1; 0; 1]; [0; 0; 0; 2; 1; 0; 0]; [1; 0; 0; 0; 0; 0; 9; 9];
     [0; 3; 1; 0; 0; 0]; [0; 2; 1; 0; 0; 0]; [1; 0; 0; 0; 0; 0; 49; 2; 8; 8]].
Proof. vm_compute. reflexivity. Qed.
