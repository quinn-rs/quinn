(** C09 — Datagrams reach the right connection; connections are isolated (component level).

    Model: Model/Routing.v — [ConnectionIndex], [ConnectionMeta], the connection slab with slot
    reuse, [new_cid], and the call sequences of [Endpoint::{connect, handle, accept, refuse, ignore,
    handle_event}]; tied to a REAL [Endpoint] on every run by the `routing` correspondence check
    (exact outputs + an independent ownership-ledger oracle).  [state_after i] is the endpoint state
    after the history [i] of operations (any number of connects, accepts, NeedIdentifiers,
    RetireConnectionId in any order, ResetToken, Drained, datagrams; CID length 0..20 chosen by the
    first operation); the theorems quantify over ALL histories.

    The code as it was violated the property in two ways, both repaired by `fix:` commits and both
    kept here as computed counterexamples of the unrepaired model ([original]):
    [C09_remove_unconditional_refuted] (DESIGN F10, also for reset tokens) and
    [C09_connect_leak_refuted] (found by `routing`). *)
From QV Require Import Lib.Tac Lib.Corr Model.Routing Proofs.RoutingMap Proofs.RoutingInv
  Proofs.RoutingProofs Proofs.RoutingFrame.
Open Scope Z_scope.

(** [connection_ids[cid] = ch] implies [ch] is live and the CID is in the [loc_cids] of the slot's
    current occupant (issued to THIS incarnation, not retired); its incarnation number is one that
    was handed out. *)
Theorem C09_index_sound : forall i s c ch,
  state_after i = Some s -> lookup c (s_ids s) = Some ch ->
  exists m seq, lookup [ch] (s_conns s) = Some m /\ lookup seq (m_loc m) = Some c /\ m_inc m < s_epoch s.
Proof. exact index_sound. Qed.
Print Assumptions C09_index_sound.

(** Every issued, unretired (non-empty) CID of a live connection routes to it. *)
Theorem C09_index_complete : forall i s ch m seq c,
  state_after i = Some s -> lookup [ch] (s_conns s) = Some m -> lookup seq (m_loc m) = Some c -> c <> [] ->
  lookup c (s_ids s) = Some ch.
Proof. exact index_complete. Qed.
Print Assumptions C09_index_complete.

(** The [new_cid] loop never hands a CID in use to a second connection or sequence number. *)
Theorem C09_cids_disjoint : forall i s ch1 m1 k1 ch2 m2 k2 c,
  state_after i = Some s -> lookup [ch1] (s_conns s) = Some m1 -> lookup [ch2] (s_conns s) = Some m2 ->
  lookup k1 (m_loc m1) = Some c -> lookup k2 (m_loc m2) = Some c -> c <> [] ->
  ch1 = ch2 /\ k1 = k2.
Proof. exact cids_disjoint. Qed.
Print Assumptions C09_cids_disjoint.

(** After [Drained(ch)] none of the five maps contains [ch]. *)
Theorem C09_no_stale_after_drain : forall i s ch s' o,
  state_after i = Some s -> step s [8; ch] = Some (s', o) -> ~ mentions s' ch.
Proof. exact no_stale_after_drain. Qed.
Print Assumptions C09_no_stale_after_drain.

(** The slot the next connection will get is mentioned by no map: a reused handle inherits nothing. *)
Theorem C09_new_handle_fresh : forall i s,
  state_after i = Some s -> ~ mentions s (vacant_key s).
Proof. exact new_handle_fresh. Qed.
Print Assumptions C09_new_handle_fresh.

(** What [ConnectionIndex::get] can answer: only a live connection that holds the destination CID,
    or (Initial/0-RTT only) was created by that DCID, or (empty DCID) claimed the address tuple,
    or registered the trailing reset token for that remote. *)
Theorem C09_route_unique : forall i s kind r l t dcid ch,
  state_after i = Some s -> get s kind r l t dcid = Some (RConn ch) ->
  exists m, lookup [ch] (s_conns s) = Some m /\
    ((dcid <> [] /\ exists seq, lookup seq (m_loc m) = Some dcid) \/
     ((kind = 1 \/ kind = 2) /\ m_server m = true /\ m_init m = dcid) \/
     (dcid = [] /\ m_server m = true /\ m_remote m = r /\ m_local m = l) \/
     (dcid = [] /\ m_server m = false /\ m_remote m = r) \/
     m_tok m = Some (r, t)).
Proof. exact route_unique. Qed.
Print Assumptions C09_route_unique.

(** A short-header packet carrying an active CID reaches its owner from any address, with any
    trailing bytes. *)
Theorem C09_route_owner : forall i s ch m seq c r l t,
  state_after i = Some s -> lookup [ch] (s_conns s) = Some m -> lookup seq (m_loc m) = Some c -> c <> [] ->
  get s 0 r l t c = Some (RConn ch).
Proof. exact route_owner. Qed.
Print Assumptions C09_route_owner.

(** Every reachable state satisfies the whole routing invariant (slab well-formedness, per-connection
    consistency, soundness of all five maps). *)
Theorem C09_reachable_inv : forall i s, state_after i = Some s -> Inv s.
Proof. exact reachable_inv. Qed.
Print Assumptions C09_reachable_inv.

(** The unrepaired code, refuted by computation; the repaired model passes the same histories. *)
Theorem C09_remove_unconditional_refuted :
  oracle f10_history (run_v original f10_history) = false /\
  oracle tok_history (run_v original tok_history) = false /\
  oracle f10_history (run f10_history) = true /\ oracle tok_history (run tok_history) = true.
Proof.
  split; [exact (proj2 f10_refuted)|]. split; [exact (proj1 tok_refuted)|].
  split; [exact (proj2 f10_fixed) | exact (proj2 tok_refuted)].
Qed.
Print Assumptions C09_remove_unconditional_refuted.

Theorem C09_connect_leak_refuted :
  oracle leak_history (run_v original leak_history) = false /\
  oracle leak_history (run leak_history) = true.
Proof. split; [exact (proj2 leak_refuted) | exact (proj2 leak_fixed)]. Qed.
Print Assumptions C09_connect_leak_refuted.

(** [isolation] as a frame property.  [label s op] is the connection a step creates (connect, accept:
    the vacant slab slot), changes (NeedIdentifiers, RetireConnectionId, ResetToken) or removes
    (Drained); datagrams, refuse and ignore carry no label.  A step labelled [a] leaves every other
    connection [b] alone: [b]'s record is unchanged, exactly the same non-empty CIDs route to [b]
    (the entry for the empty CID is never consulted by [get]), and [b] gains no initial-DCID, tuple
    or reset-token entry. *)
Theorem C09_isolation_partial : forall i s op s' o b,
  state_after i = Some s -> step s op = Some (s', o) -> label s op <> Some b ->
  lookup [b] (s_conns s') = lookup [b] (s_conns s) /\
  (forall k, k <> [] -> (lookup k (s_ids s') = Some b <-> lookup k (s_ids s) = Some b)) /\
  (forall k, lookup k (s_init s') = Some (RConn b) -> lookup k (s_init s) = Some (RConn b)) /\
  (forall k, lookup k (s_in s') = Some b -> lookup k (s_in s) = Some b) /\
  (forall k, lookup k (s_out s') = Some b -> lookup k (s_out s) = Some b) /\
  (forall k, lookup k (s_tok s') = Some b -> lookup k (s_tok s) = Some b).
Proof.
  intros i s op s' o b R H N. apply reachable_inv in R.
  destruct (step_frame s op s' o b R H N) as [A B C].
  split; [exact A|]. split; [intros k Nk; split; [exact (B Kids k) | exact (C k Nk)]|].
  split; [exact (B Kinit)|]. split; [exact (B Kin)|]. split; [exact (B Kout) | exact (B Ktok)].
Qed.
Print Assumptions C09_isolation_partial.

(** Statements kept at full strength but NOT proved. *)

(** Missing from [C09_isolation_partial]: that [b] also LOSES no entry.  For [connection_ids] this
    is proved (the equivalence above); for [connection_ids_initial] it needs the Incoming
    bookkeeping invariant (an accepted/refused Incoming's DCID is not some connection's initial
    DCID), not carried by [Inv]; for the tuple and token maps it holds only under the step's
    precondition (the tuple claimed / token registered by [a] is not currently held by [b]) --
    otherwise the younger claimant takes the entry over, by design after the repair. *)
Definition C09_isolation_full : Prop :=
  forall i s op s' o b,
    state_after i = Some s -> step s op = Some (s', o) -> label s op <> Some b ->
    lookup [b] (s_conns s') = lookup [b] (s_conns s) /\
    (forall k, lookup k (s_ids s') = Some b <-> lookup k (s_ids s) = Some b) /\
    (forall k, lookup k (s_init s') = Some (RConn b) <-> lookup k (s_init s) = Some (RConn b)) /\
    (forall k, lookup k (s_in s') = Some b -> lookup k (s_in s) = Some b) /\
    (forall k, lookup k (s_out s') = Some b -> lookup k (s_out s) = Some b) /\
    (forall k, lookup k (s_tok s') = Some b -> lookup k (s_tok s) = Some b).

(** [tuple_route]: if live zero-length-CID connections have pairwise distinct tuples throughout
    the history, each of them owns its tuple entry.  Not proved (only the soundness direction is:
    [C09_route_unique] cases 3 and 4, and [I_in]/[I_out] of the invariant). *)
Definition distinct_tuples (s : st) : Prop :=
  forall a b ma mb, a <> b -> lookup [a] (s_conns s) = Some ma -> lookup [b] (s_conns s) = Some mb ->
                    m_remote ma <> m_remote mb.
Definition C09_tuple_route_full : Prop :=
  forall i s ch m,
    (forall j s0, state_after (firstn j i) = Some s0 -> distinct_tuples s0) ->
    state_after i = Some s -> s_len s = 0 -> lookup [ch] (s_conns s) = Some m ->
    (m_server m = true -> lookup [m_remote m; m_local m] (s_in s) = Some ch) /\
    (m_server m = false -> lookup [m_remote m] (s_out s) = Some ch).

(** [views_in_step] (endpoint [loc_cids]/[cids_issued] vs the connection's [CidState]) is not
    modelled here: [CidState] is private to the connection module (property C03's component). *)

(** Non-vacuity: a history with both roles, issuance, retirement, drain, slot reuse, a token. *)
Example C09_example :
  oracle example_history (run example_history) = true /\
  exists s, state_after example_history = Some s /\ size (s_conns s) = 2 /\ size (s_ids s) = 3.
Proof. destruct example_run as [_ [A B]]. split; [exact A | exact B]. Qed.

(** Regression for the ownership ledger (seed sweep): a short-lived accepted connection (first
    packet rejected) is the last claimant of its tuple; the older owner does not regain it. *)
Example C09_takeover_example :
  run takeover_history = [[0]; [2; 0]; [0; 0]; [1; 0]; [2; 1]; [1; 3]; [0; 0]] /\
  oracle takeover_history (run takeover_history) = true.
Proof. exact takeover_run. Qed.
