(** C15 — Path migration keeps the connection and cannot be hijacked (component level).
    Property theorems, closed by [exact] of a lemma under Proofs/ or a short script, each with
    [Print Assumptions]. Model: Model/PathSM.v (the path state machine of an Established
    connection; per-path byte counters are Model/AntiAmp.v, so C07's bound is imported, not
    restated), tied to the real endpoints by the trace monitor Sys/MonC15.v on every run.

    A run is a list of operations on [PathSM.init server? migration_allowed? address]:
    [Datagram d] (source address, size, authentic?, older-than-dedup-window?, packet number,
    frames, and the random tokens / PTO values [migrate] would read), [Timeout now],
    [Transmit seg max sizes]. Everything the environment chooses is universally quantified. *)
From QV Require Import Lib.Tac Lib.Chk Lib.Corr gen.Constants.
From QV Require Import Model.PathSM Proofs.PathSMProofs Proofs.PathSMThms.
From QV Require Proofs.AntiAmpProofs.
Open Scope Z_scope.

(** non_migrating_ignores_strangers. For a client, or a server with migration disabled, a
    datagram from any other address is a no-op: the state afterwards is the state before (no
    counter, no dedup entry, no queued response), and nothing is sent. *)
Theorem C15_non_migrating_ignores_strangers : forall s d,
  may_migrate s = false -> d_from d <> remote (cur s) -> step s (Datagram d) = Some (s, []).
Proof. exact non_migrating_ignores_strangers. Qed.
Print Assumptions C15_non_migrating_ignores_strangers.

(** ... and therefore, for every run, such an endpoint stays on its first, validated, path *)
Theorem C15_non_migrating_never_moves : forall srv mig a l s,
  srv && mig = false -> steps (init srv mig a) l = Some s ->
  remote (cur s) = a /\ validated (cur s) = true.
Proof. exact non_migrating_never_moves. Qed.
Print Assumptions C15_non_migrating_never_moves.

(** migrate_requires_fresh_authentic. In any state satisfying the invariant (all reachable ones,
    [C15_reachable_inv]) a datagram changes the remote address only if the endpoint is a server
    allowing migration and the packet is authentic, not a duplicate (neither older than the dedup
    window nor seen before), contains a non-probing frame, and its number exceeds every number
    accepted so far; the new remote is the datagram's source. *)
Theorem C15_migrate_requires_fresh_authentic : forall s d,
  Inv s -> remote (cur (handle_datagram s d)) <> remote (cur s) ->
  may_migrate s = true /\ d_auth d = true /\ d_old d = false /\ memz (d_pn d) (seen s) = false /\
  all_probing (d_frames d) = false /\ (forall q, In q (seen s) -> q < d_pn d) /\
  d_from d <> remote (cur s) /\ remote (cur (handle_datagram s d)) = d_from d.
Proof. exact migrate_requires_fresh_authentic. Qed.
Print Assumptions C15_migrate_requires_fresh_authentic.

Theorem C15_reachable_inv : forall srv mig a l s,
  steps (init srv mig a) l = Some s -> Inv s.
Proof. intros srv mig a l s H. exact (steps_inv0 l _ _ (init_inv srv mig a) H). Qed.
Print Assumptions C15_reachable_inv.

(** a processed packet delivered again — from any address, any time later, whatever else the
    environment claims about the copy — is dropped before its frames are looked at *)
Theorem C15_replayed_packet_never_migrates : forall s d l s2 d',
  (d_from d = remote (cur s) \/ may_migrate s = true) -> d_auth d = true -> d_old d = false ->
  steps (handle_datagram s d) l = Some s2 -> d_pn d' = d_pn d ->
  handle_packet s2 d' = s2 /\ remote (cur (handle_datagram s2 d')) = remote (cur s2).
Proof. exact replayed_packet_never_migrates. Qed.
Print Assumptions C15_replayed_packet_never_migrates.

Theorem C15_unauthenticated_does_nothing : forall s d, d_auth d = false -> handle_packet s d = s.
Proof. exact unauthenticated_does_nothing. Qed.
Print Assumptions C15_unauthenticated_does_nothing.

(** new_path_limited_until_validated, part 1. Directly after a migration the path is
    unvalidated — always: neither [PathData::from_previous] (same IPv4 address, new port) nor
    [PathData::new] keeps [validated] — its counters restart from the triggering datagram, a
    challenge is outstanding, the validation timer is armed 3 x max(PTO after, PTO before) ahead,
    and [prev_path] is the path that was validated last. *)
Theorem C15_migration_starts_limited : forall s d,
  Inv s -> remote (cur (handle_datagram s d)) <> remote (cur s) ->
  let s' := handle_datagram s d in
  validated (cur s') = false /\ aa (cur s') = AA.recv (AA.fresh false) (d_size d) /\
  challenge (cur s') = Some (d_tok_new d) /\ pending (cur s') = true /\
  timer s' = Some (d_now d + 3 * Z.max (d_pto_new d) (d_pto_prev d)) /\
  last_valid s' = last_valid s /\
  exists p, prev s' = Some p /\ validated p = true /\ remote p = last_valid s.
Proof. exact migration_starts_limited. Qed.
Print Assumptions C15_migration_starts_limited.

(** part 2: C07's bound (imported: [AntiAmpProofs.amplification_bound]) holds on the current path
    in every reachable state in which it is unvalidated, on the bytes REALLY sent to / received
    from the address since the migration, for the crate's largest datagram. *)
Theorem C15_new_path_amplification_bound : forall srv mig a l s,
  Forall (op_wf MAX_UDP_PAYLOAD) l -> steps (init srv mig a) l = Some s ->
  validated (cur s) = false ->
  AA.gs (aa (cur s)) < 3 * AA.gr (aa (cur s)) + MAX_UDP_PAYLOAD.
Proof.
  intros srv mig a l s Hwf Hs Hv.
  exact (new_path_amplification_bound MAX_UDP_PAYLOAD srv mig a l s ltac:(vm_compute; reflexivity) Hwf Hs Hv).
Qed.
Print Assumptions C15_new_path_amplification_bound.

(** part 3: the path becomes validated only by an authentic, fresh datagram FROM THE PATH'S OWN
    ADDRESS carrying a PATH_RESPONSE with the outstanding token (or by the fallback below);
    a response from elsewhere, or with another token, changes nothing at all. *)
Theorem C15_validation_only_by : forall s o s' out,
  Inv s -> step s o = Some (s', out) -> validated (cur s) = false -> validated (cur s') = true ->
  (exists d tok, o = Datagram d /\ d_auth d = true /\ d_old d = false /\ memz (d_pn d) (seen s) = false /\
                 d_from d = remote (cur s) /\ challenge (cur s) = Some tok /\ In (FResponse tok) (d_frames d) /\
                 remote (cur s') = remote (cur s))
  \/ (exists now dl, o = Timeout now /\ timer s = Some dl /\ dl <= now /\ remote (cur s') = last_valid s).
Proof. exact validation_only_by. Qed.
Print Assumptions C15_validation_only_by.

Theorem C15_response_elsewhere_changes_nothing : forall from pn s tok,
  (from <> remote (cur s) \/ challenge (cur s) <> Some tok) ->
  process_frame from pn s (FResponse tok) = s.
Proof. exact response_elsewhere_changes_nothing. Qed.
Print Assumptions C15_response_elsewhere_changes_nothing.

(** fallback_within_3pto. In every reachable state an unvalidated path has its validation timer
    armed and a challenge outstanding, and [prev_path] is the most recently validated path —
    across overlapping and repeated migrations (the "don't clobber" rule); when [handle_timeout]
    runs at or after the deadline the connection is back on that path, validated, with no
    previous path and no timer. The deadline is the one computed by the most recent migration:
    its time + 3 x max(PTO after, PTO before). *)
Theorem C15_unvalidated_path_is_on_the_clock : forall srv mig a l s,
  steps (init srv mig a) l = Some s ->
  if validated (cur s)
  then timer s = None /\ last_valid s = remote (cur s) /\ challenge (cur s) = None
  else (exists dl, timer s = Some dl) /\ (exists tok, challenge (cur s) = Some tok) /\
       exists p, prev s = Some p /\ validated p = true /\ remote p = last_valid s.
Proof. exact unvalidated_path_is_on_the_clock. Qed.
Print Assumptions C15_unvalidated_path_is_on_the_clock.

Theorem C15_fallback_at_deadline : forall srv mig a l s dl now,
  steps (init srv mig a) l = Some s -> timer s = Some dl -> dl <= now ->
  let s' := handle_timeout s now in
  validated (cur s) = false /\ remote (cur s') = last_valid s /\ validated (cur s') = true /\
  challenge (cur s') = None /\ prev s' = None /\ timer s' = None.
Proof. exact fallback_at_deadline. Qed.
Print Assumptions C15_fallback_at_deadline.

Theorem C15_timer_set_only_by_migrate : forall s o s' out dl,
  step s o = Some (s', out) -> timer s' = Some dl -> timer s <> Some dl ->
  exists d, o = Datagram d /\ remote (cur s') = d_from d /\ d_from d <> remote (cur s) /\
            dl = d_now d + 3 * Z.max (d_pto_new d) (d_pto_prev d).
Proof. exact timer_set_only_by_migrate. Qed.
Print Assumptions C15_timer_set_only_by_migrate.

(** validated_path_resumes. The matching response from the path's address validates it in the
    same step and the send gate stops consulting the byte counters. *)
Theorem C15_validated_path_resumes : forall s d tok b,
  Inv s -> validated (cur s) = false -> challenge (cur s) = Some tok ->
  d_from d = remote (cur s) -> d_auth d = true -> d_old d = false -> memz (d_pn d) (seen s) = false ->
  In (FResponse tok) (d_frames d) ->
  let s' := handle_datagram s d in
  validated (cur s') = true /\ remote (cur s') = remote (cur s) /\ timer s' = None /\
  AA.blocked (aa (cur s')) b = Some false.
Proof. exact validated_path_resumes. Qed.
Print Assumptions C15_validated_path_resumes.

(** Where a poll_transmit may send (DESIGN §7 F9, decided). Besides the current path (accounted
    in its counters) there are exactly two other destinations, both one datagram of
    MIN_INITIAL_SIZE that is accounted nowhere:
    - the previous path, once per migration away from a validated path — that address IS
      validated, so the 3x rule does not apply to it;
    - the source of an authentic off-path PATH_CHALLENGE. This one is not bounded by what that
      address sent ([C15_offpath_response_not_limited]: 50 bytes in, 1200 out); RFC 9000 §8.2.2
      wants the padding dropped in that case. It needs a peer that holds the connection's keys,
      and a real quinn peer pads its challenges to 1200 bytes, so the simulator cannot reach it. *)
Theorem C15_transmit_destinations : forall s seg max ds s' out,
  Inv s -> transmit s seg max ds = Some (s', out) ->
  out = []
  \/ (exists t, out = [(remote (cur s), t)] /\
                AA.gs (aa (cur s')) = AA.gs (aa (cur s)) + t /\ AA.gr (aa (cur s')) = AA.gr (aa (cur s)))
  \/ (exists p, prev s = Some p /\ pending p = true /\ validated p = true /\ remote p = last_valid s /\
                validated (cur s) = false /\ out = [(remote p, MIN_INITIAL_SIZE)] /\
                prev s' = Some (set_pending p false) /\ cur s' = cur s)
  \/ (exists tok a r', PR.pop_off_path (resps s) (remote (cur s)) = (r', Some (tok, a)) /\
                a <> remote (cur s) /\ out = [(a, MIN_INITIAL_SIZE)] /\ resps s' = r' /\ cur s' = cur s).
Proof. exact transmit_destinations. Qed.
Print Assumptions C15_transmit_destinations.

Theorem C15_offpath_response_not_limited :
  let s1 := handle_datagram (init true true 0) offpath_witness in
  remote (cur s1) = 0 /\ validated (cur s1) = true /\
  option_map snd (step s1 (Transmit 1200 1 [100])) = Some [(9, MIN_INITIAL_SIZE)] /\
  3 * d_size offpath_witness < MIN_INITIAL_SIZE.
Proof. vm_compute. repeat split; reflexivity. Qed.
Print Assumptions C15_offpath_response_not_limited.

(** The full property includes a liveness clause — the server FOLLOWS a client that keeps sending
    from its new address and the transfer completes — which is not proved here: it is observed on
    sampled schedules by the trace monitor (Sys/MonC15.v, rule (d)). *)
Definition C15_full_follows_client : Prop :=
  forall (client_keeps_sending_from : Z -> Prop) (eventually_remote_is : Z -> Prop) (b : Z),
    client_keeps_sending_from b -> eventually_remote_is b.

(** Non-vacuity. Addresses: 0 = the client's first address, 5 = its new one, 66 = an attacker.
    (1) packet 7 from address 5 migrates (unvalidated, timer at 1000 + 3 x 400), the server sends
    its challenge within the budget 3 x 1200, the response with token 111 from address 5
    validates; the remote addresses over time are 0, 5, 5, 5. *)
Definition ex_mig : dgram := mkd 1000 5 1200 true false 7 [FOther] 111 222 400 300.
Definition ex_resp : dgram := mkd 1100 5 1200 true false 8 [FResponse 111; FOther] 0 0 0 0.
Example C15_example_migrate_then_validate :
  match steps (init true true 0) [Datagram ex_mig] with
  | Some s => (remote (cur s), validated (cur s), timer s, challenge (cur s),
               option_map remote (prev s)) = (5, false, Some 2200, Some 111, Some 0)
  | None => False
  end /\
  match steps (init true true 0) [Datagram ex_mig; Transmit 1200 10 [1200; 1200; 1200; 1200; 1200]] with
  | Some s => (AA.gs (aa (cur s)), AA.gr (aa (cur s))) = (0, 1200)   (* that poll sent the previous path's challenge *)
  | None => False
  end /\
  match steps (init true true 0)
          [Datagram ex_mig; Transmit 1200 10 [1200]; Transmit 1200 10 [1200; 1200; 1200; 1200; 1200];
           Transmit 1200 10 [1200]; Datagram ex_resp] with
  | Some s => (remote (cur s), validated (cur s), timer s, AA.gs (aa (cur s)), last_valid s)
              = (5, true, None, 3600, 5)
  | None => False
  end.
Proof. vm_compute. repeat split; reflexivity. Qed.

(** (2) the same packet replayed from the attacker's address 66 BEFORE the original arrives is
    fresh: the server moves to 66, limited and on the clock; the original (now a duplicate)
    does nothing; a response from elsewhere does nothing; at the deadline the server is back on
    address 0, validated. A second migration in between (to 67) does not clobber [prev_path]. *)
Definition ex_spoof : dgram := mkd 1000 66 1200 true false 7 [FOther] 333 444 400 300.
Definition ex_orig : dgram := mkd 1010 0 1200 true false 7 [FOther] 0 0 0 0.
Definition ex_resp_elsewhere : dgram := mkd 1020 0 1200 true false 9 [FResponse 333] 0 0 0 0.
Definition ex_spoof2 : dgram := mkd 1500 67 1200 true false 10 [FOther] 555 666 400 400.
Example C15_example_spoof_then_fallback :
  remotes (init true true 0)
    [Datagram ex_spoof; Datagram ex_orig; Timeout 2199; Timeout 2200] = [0; 66; 66; 66; 0] /\
  match steps (init true true 0) [Datagram ex_spoof; Datagram ex_orig; Timeout 2200] with
  | Some s => (remote (cur s), validated (cur s), timer s, prev s, challenge (cur s)) = (0, true, None, None, None)
  | None => False
  end /\
  match steps (init true true 0) [Datagram ex_spoof; Datagram ex_spoof2] with
  | Some s => (remote (cur s), validated (cur s), timer s, option_map remote (prev s)) = (67, false, Some 2700, Some 0)
  | None => False
  end /\
  remotes (init true true 0)
    [Datagram ex_spoof; Datagram ex_spoof2; Timeout 2700] = [0; 66; 67; 0] /\
  (* not from address 66 although the token matches: 9 is even the highest number: it migrates back to 0 instead *)
  match steps (init true true 0) [Datagram ex_spoof; Datagram ex_resp_elsewhere] with
  | Some s => (remote (cur s), validated (cur s), option_map remote (prev s)) = (66, false, Some 0)
  | None => False
  end /\
  (* a client ignores the lot *)
  remotes (init false false 0) [Datagram ex_spoof; Datagram ex_spoof2; Timeout 9999] = [0; 0; 0; 0].
Proof. vm_compute. repeat split; reflexivity. Qed.

(** Defect found by the trace ledger (rule (e) of Sys/MonC15.v) and repaired in the code
    (`fix: credit coalesced packets ...`): [handle_coalesced] credited the bytes behind the first
    packet of a datagram to the current path whatever the datagram's source. With that credit the
    bound is false — 1200 bytes came from address 66, two datagrams from elsewhere with 1149
    coalesced bytes each raise its budget, 6000 bytes go to 66 — and with the repaired credit
    (only from the path's own address) the invariant behind the bound is preserved. *)
Theorem C15_coalesced_credit_refuted :
  let s1 := handle_datagram (init true true 0) coalesced_witness in
  let s2 := coalesced_unfixed (coalesced_unfixed s1 1149) 1149 in
  match steps s2 [Transmit 1200 1 [1200]; Transmit 1200 10 [1200; 1200; 1200; 1200; 1200]] with
  | Some s3 => remote (cur s3) = 66 /\ validated (cur s3) = false /\
               AA.gr (aa (cur s3)) = 1200 /\ AA.gs (aa (cur s3)) = 6000 /\
               3 * AA.gr (aa (cur s3)) + 1200 <= AA.gs (aa (cur s3))
  | None => False
  end.
Proof. exact coalesced_credit_refuted. Qed.
Print Assumptions C15_coalesced_credit_refuted.

Theorem C15_coalesced_credit_fixed : forall mtu s from n,
  0 <= n -> Inv s /\ Hist mtu s -> Inv (coalesced_fixed s from n) /\ Hist mtu (coalesced_fixed s from n).
Proof. intros mtu s from n Hn [HI HH]. split; [apply coalesced_fixed_inv; exact HI|apply coalesced_fixed_hist; assumption]. Qed.
Print Assumptions C15_coalesced_credit_fixed.
