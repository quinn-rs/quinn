(** C06 — A receiver enforces its own limits and buffers a bounded amount.
    Proofs: Proofs/FlowRecv*.v, AsmInv.v, DatagramProofs.v. Model: Model/FlowRecv.v, tied to
    quinn-proto/src/connection/streams/{state,recv,mod}.rs by the correspondence check on every
    run ([FlowRecv.run] compared verbatim, [FlowRecv.oracle] evaluated on the implementation). *)
From QV Require Import Lib.Tac Lib.Corr Model.FlowRecv Proofs.FlowRecvProofs Proofs.FlowRecvInv.
From QV Require Lib.Bytes Model.DatagramState Proofs.DatagramProofs.
From Coq Require Import List. Import ListNotations.
Open Scope Z_scope.

(** * over_limit_rejected *)

(** A frame for a remotely initiated stream at or beyond the advertised stream count is answered
    with STREAM_LIMIT_ERROR and the state is returned untouched. *)
Theorem C06_stream_limit_rejected : forall id off len fin code final s,
  sid_init id <> side s -> pget (sid_dir id) (max_remote s) <= sid_index id ->
  received true id off len fin s = (s, Err STREAM_LIMIT_ERROR) /\
  received_reset true id code final s = (s, Err STREAM_LIMIT_ERROR).
Proof.
  intros. unfold received, received_reset. rewrite limit_rejected by assumption. split; reflexivity.
Qed.
Print Assumptions C06_stream_limit_rejected.

(** STREAM frame on a live stream whose receive half (as the application sees it) is [r]:
    end at or above 2^62, or beyond the advertised stream limit, or new bytes beyond
    [local_max_data - data_recvd] => FLOW_CONTROL_ERROR; data beyond or a FIN disagreeing with a
    known final size, or a first FIN below the high-water mark => FINAL_SIZE_ERROR; in every case
    the state is [quiesce id s]: equal to [s] except that the stream's slot is replaced by its own
    view, so nothing of the frame can ever be read. *)
Theorem C06_over_limit_rejected_stream : forall id off len fin s slot,
  validate_receive_id id s = None ->
  alookup id (recvm s) = Some slot -> is_receiving (rview s slot) = true ->
  let r := rview s slot in
  let e := off + len in
  let rejected c := received true id off len fin s = (quiesce id s, Err c) in
  (2 ^ 62 <= e -> rejected FLOW_CONTROL_ERROR) /\
  (e < 2 ^ 62 -> forall f, final_offset r = Some f -> (f < e \/ (fin = true /\ e <> f)) ->
     rejected FINAL_SIZE_ERROR) /\
  (e < 2 ^ 62 -> final_offset r = None -> fin = true -> e < r_end r -> rejected FINAL_SIZE_ERROR) /\
  (e < 2 ^ 62 ->
     (forall f, final_offset r = Some f -> e <= f /\ (fin = true -> e = f)) ->
     (final_offset r = None -> fin = true -> r_end r <= e) ->
     (r_sent_msd r < e \/ local_max s < data_recvd s + Z.max 0 (e - r_end r)) ->
     rejected FLOW_CONTROL_ERROR).
Proof.
  intros id off len fin s slot V L R r e rejected. subst rejected.
  destruct (ingest_verdict (rview s slot) off len fin (data_recvd s) (local_max s))
    as (H1 & H2 & H3 & H4).
  assert (Rej : forall c, ingest true (rview s slot) off len fin (data_recvd s) (local_max s) = Err c ->
                  received true id off len fin s = (quiesce id s, Err c)).
  { intros c G. apply received_Err. right. split; [exact V|]. split; [reflexivity|]. exists slot. auto. }
  repeat split; intros; apply Rej; auto.
  - eapply H2; eauto.
Qed.
Print Assumptions C06_over_limit_rejected_stream.

Theorem C06_over_limit_rejected_reset : forall id code final s slot,
  validate_receive_id id s = None -> alookup id (recvm s) = Some slot ->
  let r := rview s slot in
  let rejected c := received_reset true id code final s = (quiesce id s, Err c) in
  (forall f, final_offset r = Some f -> f <> final -> rejected FINAL_SIZE_ERROR) /\
  (final_offset r = None -> final < r_end r -> rejected FINAL_SIZE_ERROR) /\
  ((forall f, final_offset r = Some f -> f = final) -> (final_offset r = None -> r_end r <= final) ->
   (r_sent_msd r < final \/ local_max s < data_recvd s + Z.max 0 (final - r_end r)) ->
   rejected FLOW_CONTROL_ERROR).
Proof.
  intros id code final s slot V L r rejected. subst rejected.
  destruct (reset_verdict (rview s slot) code final (data_recvd s) (local_max s)) as (H1 & H2 & H3).
  assert (Rej : forall c, recv_reset (rview s slot) code final (data_recvd s) (local_max s) = Err c ->
                  received_reset true id code final s = (quiesce id s, Err c)).
  { intros c G. apply received_reset_Err. right. split; [exact V|]. split; [reflexivity|]. exists slot. auto. }
  repeat split; intros; apply Rej; auto.
  - eapply H1; eauto.
Qed.
Print Assumptions C06_over_limit_rejected_reset.

(** Conversely, every rejection leaves the state unchanged ([s] itself for an invalid id). *)
Theorem C06_rejected_frame_changes_nothing : forall id off len fin code final s s' c,
  (received true id off len fin s = (s', Err c) -> s' = s \/ s' = quiesce id s) /\
  (received_reset true id code final s = (s', Err c) -> s' = s \/ s' = quiesce id s).
Proof.
  intros. split; intro H.
  - apply received_Err in H. destruct H as [[_ E]|(_ & E & _)]; auto.
  - apply received_reset_Err in H. destruct H as [[_ E]|(_ & E & _)]; auto.
Qed.
Print Assumptions C06_rejected_frame_changes_nothing.

Definition reach (cfg : list Z) (i : ops) : option st :=
  match cfg with
  | [0; sd; mru; mrb; rw; srw; pmb; pmu] =>
      Some (fst (run_from (step true) (init sd mru mrb rw srw pmb pmu) i))
  | _ => None
  end.

(** * accounting_exact (all op sequences)
    For every configuration and every sequence of ops of the component (STREAM / RESET_STREAM
    frames with non-negative offsets, budgeted ordered and unordered reads, stop, received_reset,
    set_receive_window, control-frame transmission, open, accept, SendStream::reset, reset_acked,
    in any order), the reached state satisfies [Inv]:
    [local_max_data <= u64::MAX], [data_recvd <= local_max_data],
    [data_recvd = sum of the final ends of closed streams + sum over the map of end (final size
    once reset)], and for every open stream [0 <= end <= final size <= sent_max_stream_data] and the
    assembler invariant (everything buffered or delivered lies below [end]); hence
    [0 <= bytes_read <= end].  No premise on panics: the invariant does not depend on them. *)
Theorem C06_accounting_exact : forall sd mru mrb rw srw pmb pmu i s,
  0 <= rw <= U64MAX -> 0 <= srw -> Forall op_wf i ->
  reach [0; sd; mru; mrb; rw; srw; pmb; pmu] i = Some s ->
  Inv s /\
  Forall (fun p => match snd p with SOpen r => 0 <= bytes_read r <= r_end r | _ => True end) (recvm s).
Proof.
  intros sd mru mrb rw srw pmb pmu i s Hr Hs W H. unfold reach in H. inversion H; subst; clear H.
  pose proof (run_from_Inv i _ (init_Inv sd mru mrb rw srw pmb pmu Hr Hs) W) as I.
  split; [exact I|apply Inv_reads_bounded; exact I].
Qed.
Print Assumptions C06_accounting_exact.

Definition cfg_ok (cfg : list Z) : Prop :=
  match cfg with
  | [0; sd; mru; mrb; rw; srw; pmb; pmu] => 0 <= rw < 2 ^ 62 /\ 0 <= srw < 2 ^ 62 /\ 0 <= mru /\ 0 <= mrb
  | _ => False
  end.

(** Remaining full statements (over all op sequences) — not proved; their observable content is
    what [FlowRecv.oracle] checks on the implementation on every run. *)
Definition C06_buffered_bounded_full : Prop :=
  forall cfg i s, cfg_ok cfg -> reach cfg i = Some s -> panic s = false ->
    sum_unread (recvm s) <= rwin s + debt s /\
    Forall (fun p => match snd p with
                     | SOpen r => r_stopped r = false -> is_receiving r = true ->
                                  r_end r - bytes_read r <= swin s
                     | _ => True end) (recvm s).
Definition C06_credit_only_for_consumed_full : Prop :=
  forall cfg i s, cfg_ok cfg -> reach cfg i = Some s -> panic s = false ->
    (* every byte is credited exactly once, when read, discarded by stop or skipped by a reset *)
    g_credits s = g_closed s + sum_consumed_m (recvm s) /\
    (* and MAX_DATA only ever reflects the configured windows plus those credits *)
    local_max s <= nth 4 cfg 0 + g_expand s + g_credits s.
Definition C06_stream_credit_only_when_terminal_full : Prop :=
  forall cfg i s, cfg_ok cfg -> reach cfg i = Some s -> panic s = false ->
    forall d, (d = 0 \/ d = 1) ->
      (* the window of permitted streams is kept full, and [max_remote] has grown by exactly the
         number of remotely initiated streams of that direction with no live half left *)
      pget d (alloc s) = pget d (max_conc s) /\
      pget d (max_remote s) - pget d (max_conc s) =
        Z.of_nat (length (filter (fun idx =>
          negb (amem (mk_sid (1 - side s) d idx) (recvm s) || amem (mk_sid (1 - side s) d idx) (sendm s)))
          (map Z.of_nat (seq 0 (Z.to_nat (pget d (max_remote s))))))).

(** * Refutations on the code before the repairs (witnesses replayed on the real code) *)
Definition n1_witness : ops :=
  [[0;0;4;4;1000;100;4;4]; [1;3;0;32;0]; [4;3;0]; [2;3;0;32]; [7;1;0;0]].
Definition n1b_witness : ops :=
  [[0;0;4;4;1000;100;4;4]; [1;3;0;32;0]; [2;3;0;48]; [4;3;0]; [7;1;0;0]].
Definition n3_witness : ops :=
  [[0;0;4;4;1000;100;4;4]; [1;3;0;8;0]; [1;3;0;4;1]; [3;3;1;100]; [3;3;1;100]].
Definition f2_witness : ops :=
  [[0;0;4;4;1000;100;4;4]; [1;3;0;10;1]; [3;3;0;4]; [3;3;1;4]; [3;3;0;100]; [7;0;0;1]].

(** N1: credit issued twice for a stream that is stopped and reset (both orders). *)
Theorem C06_credit_only_for_consumed_refuted :
  exists i, FlowRecv.oracle i (run_unfixed i) = false /\ FlowRecv.oracle i (run i) = true.
Proof. exists n1_witness. vm_compute. split; reflexivity. Qed.
Print Assumptions C06_credit_only_for_consumed_refuted.
Theorem C06_credit_only_for_consumed_refuted_reset_first :
  exists i, FlowRecv.oracle i (run_unfixed i) = false /\ FlowRecv.oracle i (run i) = true.
Proof. exists n1b_witness. vm_compute. split; reflexivity. Qed.
Print Assumptions C06_credit_only_for_consumed_refuted_reset_first.
(** N3: a first FIN below the high-water mark was accepted. *)
Theorem C06_over_limit_rejected_refuted :
  exists i, FlowRecv.oracle i (run_unfixed i) = false /\ FlowRecv.oracle i (run i) = true.
Proof. exists n3_witness. vm_compute. split; reflexivity. Qed.
Print Assumptions C06_over_limit_rejected_refuted.
(** F2: the stream dropped on IllegalOrderedRead never returns its stream credit. *)
Theorem C06_stream_credit_refuted :
  exists i, FlowRecv.oracle i (run_unfixed i) = false /\ FlowRecv.oracle i (run i) = true.
Proof. exists f2_witness. vm_compute. split; reflexivity. Qed.
Print Assumptions C06_stream_credit_refuted.

(** * Non-vacuity *)
Example C06_example_flow_control :
  (* window 16 per stream: a frame ending at 17 is rejected, one ending at 16 accepted *)
  let s := init 0 1 0 100 16 0 0 in
  snd (received true 3 0 17 false s) = Err FLOW_CONTROL_ERROR /\
  snd (received true 3 0 16 false s) = Ok false /\
  snd (received true 7 0 1 false s) = Err STREAM_LIMIT_ERROR /\
  data_recvd (fst (received true 3 0 16 false s)) = 16.
Proof. vm_compute. repeat split; reflexivity. Qed.

(** * Unread DATAGRAM payloads are bounded by the configured datagram receive buffer
    (model Model/DatagramState.v, tied to connection/datagrams.rs by the `datagrams`
    correspondence; proofs shared with C16).  An oversized DATAGRAM frame (or any DATAGRAM frame
    when datagrams are disabled: no window) is refused — [Connection] turns that into
    PROTOCOL_VIOLATION — and leaves the buffer untouched; an accepted one evicts the OLDEST
    unread datagrams, as many as needed and no more, so that the bytes held for the application
    never exceed the window [x], whatever sizes arrived before. *)
Theorem C06_datagram_buffer_bounded : forall s d x,
  DatagramProofs.Inv s -> Bytes.zlen d <= x ->
  exists s' pre kept,
    DatagramState.received s d (Some x) = DatagramState.Ok (s', Some (DatagramState.recv_buffered s =? 0)) /\
    DatagramState.incoming s = pre ++ kept /\ DatagramState.incoming s' = kept ++ [d] /\
    DatagramState.recv_buffered s' = DatagramState.sum_len (DatagramState.incoming s') /\
    DatagramState.recv_buffered s' <= x.
Proof.
  intros s d x I L.
  destruct (DatagramProofs.receive_accepts s d x I L) as (s' & pre & kept & A & [_ D] & _ & B & C & E & _).
  exists s', pre, kept. repeat split; assumption.
Qed.
Print Assumptions C06_datagram_buffer_bounded.

Theorem C06_oversized_datagram_refused : forall s d w,
  (match w with None => True | Some x => x < Bytes.zlen d end) ->
  DatagramState.received s d w = DatagramState.Ok (s, None).
Proof. exact DatagramProofs.receive_rejects. Qed.
Print Assumptions C06_oversized_datagram_refused.
