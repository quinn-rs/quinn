(** C13 — Datagrams never exceed the validated path MTU or peer limits.  COMPONENT LEVEL
    ([MtuDiscovery] with [EnabledMtuDiscovery], [SearchState], [BlackHoleDetector]); the
    datagram-size statements over [poll_transmit] are added by the simulator level.
    Proofs in Proofs/MtudProofs.v; witnesses evaluated here.  Model: Model/Mtud.v (debug build,
    the code AFTER the F8 repair), tied to quinn-proto/src/connection/mtud.rs on every run by the
    `mtud` correspondence; MAX_PROBE_RETRANSMITS and BLACK_HOLE_THRESHOLD are the generated values.

    [reach MPR BHT m plow]: [m] is reachable from scratch by ANY sequence of operations that
    respects the caller contract of [Connection] ([op_ok]: [on_probe_lost] only while a probe is in
    flight; [new]/[reset] with [current >= min_mtu]; [minimum_change >= 3]; without a peer limit
    [initial <= MAX_UDP_PAYLOAD]) and does not panic; [plow] is the lowest peer limit received. *)
From QV Require Import Lib.Tac Lib.Corr gen.Constants Model.Mtud Proofs.MtudProofs Proofs.MtudEvidence.
Open Scope Z_scope.

Lemma MPR_side : 1 <= MAX_PROBE_RETRANSMITS.
Proof. vm_compute. discriminate. Qed.

Notation REACH := (reach MAX_PROBE_RETRANSMITS BLACK_HOLE_THRESHOLD).
Notation STEP := (Mtud.step MAX_PROBE_RETRANSMITS BLACK_HOLE_THRESHOLD true).

(** probe_bounds: a probe size returned by [poll_transmit] is strictly above the current MTU and at
    most min(config.upper_bound, peer max_udp_payload_size); it is only issued when no probe is in
    flight, and then it is the one in flight. *)
Theorem C13_probe_bounds : forall m plow e now pn e' p,
  REACH m plow -> st m = Some e ->
  Mtud.enabled_poll MAX_PROBE_RETRANSMITS e now (cur m) pn = Some (e', Some p) ->
  in_flight_probe m = None /\
  cur m < p <= Z.min (c_upper (config e)) (peer_max e) /\
  in_flight_probe (mkMtud (cur m) (Some e') (bhd m)) = Some pn /\
  outstanding (mkMtud (cur m) (Some e') (bhd m)) = Some p.
Proof. exact (probe_bounds MAX_PROBE_RETRANSMITS BLACK_HOLE_THRESHOLD MPR_side). Qed.
Print Assumptions C13_probe_bounds.

(** No hypothesis relates [initial_mtu] and [config.upper_bound] (independent public setters,
    [initial_mtu > upper_bound] is legal): [SearchState::new] clamps the search's upper bound up to
    the current MTU, and then no probe is issued at all — for every contract configuration.  The
    contract hypothesis that matters is [minimum_change >= 3] (in [op_ok] of [ONew]): smaller
    values are accepted by [MtuDiscoveryConfig::minimum_change] and refute probe_bounds and
    mtu_floor (witnesses below; known finding mtud-minimum-change-below-3). *)
Theorem C13_no_probe_when_upper_bound_not_above_current : forall m plow e now pn e' r,
  REACH m plow -> st m = Some e -> Z.min (c_upper (config e)) (peer_max e) <= cur m ->
  Mtud.enabled_poll MAX_PROBE_RETRANSMITS e now (cur m) pn = Some (e', r) -> r = None.
Proof.
  intros m plow e now pn e' r Hr Hs Hle Hp. destruct r as [p|]; [|reflexivity].
  destruct (C13_probe_bounds _ _ _ _ _ _ _ Hr Hs Hp) as (_ & Hb & _). lia.
Qed.
Print Assumptions C13_no_probe_when_upper_bound_not_above_current.

(** With minimum_change = 0 that clamp makes the probe EXCEED the configured upper bound:
    initial_mtu 9000, upper_bound 1452 -> a probe of 9000 (= current MTU). *)
Example C13_minimum_change_0_probe_above_upper_bound_refuted :
  polls_of 3 3 [ONew 9000 1400 (Some 9000) true (mkConfig 1452 600000000 500 0); OPoll 1000 0] = [0; 9000].
Proof. vm_compute. reflexivity. Qed.

(** (how [enabled_poll] is the [poll_transmit] operation of the model) *)
Theorem C13_poll_is_enabled_poll : forall m now pn,
  STEP m (OPoll now pn) =
  match st m with
  | None => Some (m, -1)
  | Some e => match Mtud.enabled_poll MAX_PROBE_RETRANSMITS e now (cur m) pn with
              | None => None
              | Some (e', r) => Some (mkMtud (cur m) (Some e') (bhd m), optz r)
              end
  end.
Proof. reflexivity. Qed.
Print Assumptions C13_poll_is_enabled_poll.

(** mtu_rises_only_on_probe_ack: in ANY state (no invariant needed) an operation that increases the
    estimate is [on_acked] in the Data space of the in-flight probe's packet number, returning
    true, and the new estimate is exactly the outstanding probe's size — or an explicit
    re-initialisation ([new]/[reset]).  In particular black-hole fallback never raises it. *)
Theorem C13_mtu_rises_only_on_probe_ack : forall m op m' r,
  STEP m op = Some (m', r) -> cur m < cur m' ->
  (exists i mn p en c, op = ONew i mn p en c) \/ (exists c mn, op = OReset c mn) \/
  (exists sp pn len, op = OAcked sp pn len /\ is_data sp = true /\
     in_flight_probe m = Some pn /\ r = 1 /\ outstanding m = Some (cur m')).
Proof. exact (mtu_rises_only_on_probe_ack MAX_PROBE_RETRANSMITS BLACK_HOLE_THRESHOLD). Qed.
Print Assumptions C13_mtu_rises_only_on_probe_ack.

(** mtu_floor: never below min(min_mtu, lowest peer limit received). *)
Theorem C13_mtu_floor : forall m plow,
  REACH m plow -> Z.min (bmin_mtu (bhd m)) plow <= cur m.
Proof. exact (mtu_floor MAX_PROBE_RETRANSMITS BLACK_HOLE_THRESHOLD MPR_side). Qed.
Print Assumptions C13_mtu_floor.

(** With MTU discovery enabled the estimate never exceeds the peer's max_udp_payload_size
    (for a disabled MtuDiscovery this is REFUTED: finding F8b below). *)
Theorem C13_mtu_within_peer_limit : forall m plow e,
  REACH m plow -> st m = Some e -> cur m <= peer_max e.
Proof. exact (mtu_within_peer_limit MAX_PROBE_RETRANSMITS BLACK_HOLE_THRESHOLD MPR_side). Qed.
Print Assumptions C13_mtu_within_peer_limit.

(** F8 (DESIGN §7), decided by the faithful model: REFUTED on the code before the repair —
    [black_hole_detected] raised the estimate from 1200 to min_mtu = 1300 although the peer's
    max_udp_payload_size was 1200; with the repair (commit `fix: black hole fallback never
    raises ...`) the same sequence stays at 1200 and the theorems above hold at full strength. *)
Theorem C13_F8_refuted_before_fix :
  cur_after 3 3 false f8_witness = Some 1200 /\
  cur_after 3 3 false (f8_witness ++ [OBlackHole 0]) = Some 1300 /\
  cur_after 3 3 true (f8_witness ++ [OBlackHole 0]) = Some 1200.
Proof. vm_compute. repeat split; reflexivity. Qed.
Print Assumptions C13_F8_refuted_before_fix.

(** F8b (known finding `mtud-disabled-forgets-peer-limit`): a disabled MtuDiscovery does not
    remember the peer's limit; [reset] puts the estimate back above it. *)
Theorem C13_F8b_disabled_forgets_peer_limit_refuted :
  cur_after 3 3 true [ONew 1400 1200 None false (mkConfig 0 0 0 0); OPeerMax 1200] = Some 1200 /\
  cur_after 3 3 true [ONew 1400 1200 None false (mkConfig 0 0 0 0); OPeerMax 1200; OReset 1400 1200] = Some 1400.
Proof. vm_compute. split; reflexivity. Qed.
Print Assumptions C13_F8b_disabled_forgets_peer_limit_refuted.

(** Why [minimum_change >= 3] is in the contract ([MtuDiscoveryConfig::minimum_change] is not
    validated): with 1 a probe BELOW the current MTU is issued and lowers the estimate when
    acknowledged; with 0 the search never completes. *)
Theorem C13_minimum_change_1_refuted :
  polls_of 3 3 [ONew 1200 1200 None true (mkConfig 1202 0 0 1);
                OPoll 0 1; OProbeLost; OPoll 0 2; OProbeLost; OPoll 0 3; OProbeLost;
                OPoll 0 4; OProbeLost; OPoll 0 5; OProbeLost; OPoll 0 6; OProbeLost;
                OPoll 0 7; OAcked 2 7 1199]
  = [0; 1201; 0; 1201; 0; 1201; 0; 1200; 0; 1200; 0; 1200; 0; 1199; 1] /\
  cur_after 3 3 true [ONew 1200 1200 None true (mkConfig 1202 0 0 1);
                OPoll 0 1; OProbeLost; OPoll 0 2; OProbeLost; OPoll 0 3; OProbeLost;
                OPoll 0 4; OProbeLost; OPoll 0 5; OProbeLost; OPoll 0 6; OProbeLost;
                OPoll 0 7; OAcked 2 7 1199] = Some 1199.
Proof. vm_compute. split; reflexivity. Qed.
Print Assumptions C13_minimum_change_1_refuted.

Theorem C13_minimum_change_0_never_completes_refuted :
  polls_of 3 3 [ONew 1200 1200 None true (mkConfig 1200 0 0 0);
                OPoll 0 1; OAcked 2 1 1200; OPoll 0 2; OAcked 2 2 1200; OPoll 0 3; OAcked 2 3 1200;
                OPoll 0 4; OAcked 2 4 1200; OPoll 0 5; OAcked 2 5 1200; OPoll 0 6; OAcked 2 6 1200;
                OPoll 0 7; OAcked 2 7 1200; OPoll 0 8]
  = [0; 1200; 1; 1200; 1; 1200; 1; 1200; 1; 1200; 1; 1200; 1; 1200; 1; 1200].
Proof. vm_compute. reflexivity. Qed.
Print Assumptions C13_minimum_change_0_never_completes_refuted.

(** The witnesses above use the literal constants 3, 3: they must be the generated ones. *)
Example C13_constants_pinned : MAX_PROBE_RETRANSMITS = 3 /\ BLACK_HOLE_THRESHOLD = 3.
Proof. vm_compute. split; reflexivity. Qed.

(** Non-vacuity: a reachable state in the middle of a search after a retransmit exhaustion, and
    the default search of the crate's own unit test (1200 -> 1326 -> 1389 ...). *)
Example C13_mtud_example :
  Mtud.run [[0; 1200; 1200; -1; 1; 1452; 600000000; 60000000; 20]; [3; 0; 1]; [4; 2; 1; 1326]; [3; 0; 2];
            [5]; [3; 0; 3]; [5]; [3; 0; 4]; [5]; [3; 0; 5]]
  = [[0; 1200; -1]; [1326; 1200; 1]; [1; 1326; -1]; [1389; 1326; 2];
     [0; 1326; -1]; [1389; 1326; 3]; [0; 1326; -1]; [1389; 1326; 4]; [0; 1326; -1]; [1357; 1326; 5]].
Proof. vm_compute. reflexivity. Qed.

Example C13_reach_example :
  exists m, REACH m MAX_UDP_PAYLOAD /\ cur m = 1300 /\ in_flight_probe m = Some 1 /\ outstanding m = Some 1376.
Proof.
  eexists. split.
  - eapply (reach_step _ _ _ _ (OPoll 0 1)).
    + eapply (reach_step _ _ dummy 0 (ONew 1300 1200 None true (mkConfig 1452 1000 1000 20))).
      * apply reach_init.
      * cbn. repeat split; try lia. discriminate.
      * vm_compute. reflexivity.
    + exact I.
    + vm_compute. reflexivity.
  - vm_compute. repeat split; reflexivity.
Qed.

(** NOT PROVED at this level — full statements kept as definitions (see the final report).
    Both are checked on every generated case by the correspondence (model equality) and, for the
    black hole, by the oracle's specification-level burst counter (Model/Mtud.v [t_nbursts]). *)

(** Contract-respecting continuation, and the number of probes issued while the search that is
    active in [m] lasts. *)
Fixpoint contract_run (m : Mtud) (ops : list Op) : Prop :=
  match ops with
  | [] => True
  | op :: r => op_ok m op /\ match STEP m op with Some (m', _) => contract_run m' r | None => True end
  end.

Definition searching (m : Mtud) : bool :=
  match st m with Some e => match phase e with Searching _ => true | _ => false end | None => false end.

Fixpoint probe_sends (m : Mtud) (ops : list Op) : Z :=
  match ops with
  | [] => 0
  | op :: r =>
      match STEP m op with
      | None => 0
      | Some (m', x) =>
          if searching m' then
            (match op with OPoll _ _ => if 0 <=? x then 1 else 0 | _ => 0 end) + probe_sends m' r
          else 0
      end
  end.

(** search_terminates: from any reachable searching state, whatever happens next, at most
    MAX_PROBE_RETRANSMITS * (ceil(log2(upper - lower)) + 1) further probes are sent before the
    search is [Complete] (and a poll with no probe in flight either sends or completes). *)
Definition C13_full_search_terminates : Prop :=
  forall m plow e s ops,
    REACH m plow -> st m = Some e -> phase e = Searching s -> contract_run m ops ->
    probe_sends m ops <= MAX_PROBE_RETRANSMITS * (Z.log2_up (upper s - lower s) + 1).

(** black_hole_needs_evidence, proved part: [black_hole_detected] returns true only with more than
    BLACK_HOLE_THRESHOLD recorded suspicious bursts, every one of which consisted solely of packets
    larger than min_mtu (inductive invariant over all reachable states).  NOT proved: the clause
    "larger than any more recently acknowledged packet" (the [retain]/[acked_mtu] bookkeeping);
    its statement needs a ghost history of acknowledgements and is left to the correspondence. *)
Theorem C13_black_hole_needs_evidence_partial : forall m plow now m',
  REACH m plow -> STEP m (OBlackHole now) = Some (m', 1) ->
  let b := finish_loss_burst BLACK_HOLE_THRESHOLD (bhd m) in
  BLACK_HOLE_THRESHOLD < Z.of_nat (length (bursts b)) /\
  Forall (fun x => bmin_mtu b < x) (bursts b).
Proof. exact (black_hole_needs_evidence MAX_PROBE_RETRANSMITS BLACK_HOLE_THRESHOLD). Qed.
Print Assumptions C13_black_hole_needs_evidence_partial.
