(** C20 — The protocol core is deterministic and driven only by its inputs.

    What is PROVED here (for all states, op sequences, instants and shifts [d]; unbounded):
      * time-translation equivariance of every time-carrying component model present in the tree
        (TimerTable, Mtud, PendingAcks, StatelessReset, BloomLog, CidState): shifting every supplied
        instant by [d] shifts every stored / returned instant by [d] and changes nothing else;
      * the driver contract on the model of [TimerTable] + the dispatch loop of
        [Connection::handle_timeout]: a call with no expired timer is a no-op; under the handler
        contract one call settles; under the back-off contract at most measure + 1 calls settle; the
        concrete PTO back-off settles within MAX_BACKOFF_EXPONENT + 1 calls when serviced late by
        less than pto_base * 2^MAX_BACKOFF_EXPONENT; [next_timeout] is the minimum of the armed
        timers; polls on empty queues are no-ops.
    What is NOT proved: that the Rust state machine as a whole has these properties
    ([C20_full] below).  That is OBSERVED on every run by twin runs of the real endpoints
    (coq/Sys/MonC20.v) and by the static inventory of ambient sources (checks/C20.py).
    Determinism of Gallina functions is trivial and is not stated. *)
From Coq Require Import ZArith List Bool Lia.
From QV Require Import Lib.Corr gen.Constants Model.TimerTable Proofs.TimerTableProofs Proofs.ShiftProofs.
From QV Require Model.Mtud Model.PendingAcks Model.StatelessReset Model.BloomLog Model.CidState.
Import ListNotations.
Open Scope Z_scope.

(** * The full statement, for an arbitrary sans-IO machine: inputs carry instants, outputs carry
    instants, [sh d] translates them.  [C20_full M] is what the property file asks of the real
    [Connection]/[Endpoint]; no model of the whole machine exists, so it is stated, not proved. *)
Record Machine := {
  St : Type; In : Type; Out : Type;
  mstep : St -> In -> St * list Out;
  sh_st : Z -> St -> St; sh_in : Z -> In -> In; sh_out : Z -> Out -> Out;
  timeout_in : Z -> In;                 (* handle_timeout(now) *)
  next_deadline : St -> option Z;       (* poll_timeout *)
  drained : St -> bool
}.
Definition C20_full (M : Machine) : Prop :=
  (* time translation *)
  (forall d s i, mstep M (sh_st M d s) (sh_in M d i)
                 = (sh_st M d (fst (mstep M s i)), map (sh_out M d) (snd (mstep M s i))))
  (* a timeout call before the deadline is a no-op *)
  /\ (forall s now, match next_deadline M s with Some t => now < t | None => True end ->
                    mstep M s (timeout_in M now) = (s, []))
  (* timeouts settle within a bounded number of calls (for the real machine: under the lateness
     bound made explicit in [C20_pto_settles]) *)
  /\ (exists bound : nat, forall s now,
        exists n, (n <= bound)%nat /\
          match next_deadline M (Nat.iter n (fun s => fst (mstep M s (timeout_in M now))) s)
          with Some t => now < t | None => True end)
  (* a drained machine is silent *)
  /\ (forall s i, drained M s = true -> snd (mstep M s i) = [] /\ drained M (fst (mstep M s i)) = true).

(** * TimerTable and the handle_timeout loop *)
Theorem C20_next_timeout_is_min : forall tb : table,
  match next_timeout tb with
  | None => forall j, get tb j = None
  | Some m => (exists j, get tb j = Some m) /\ forall j x, get tb j = Some x -> m <= x
  end.
Proof. exact next_timeout_is_min. Qed.

Theorem C20_spurious_timeout_noop :
  forall (H : Type) (handler : nat -> Z -> H * table -> H * table) (now : Z) (s : H * table),
    future (snd s) now -> handle_timeout H handler now s = s.
Proof. exact spurious_timeout_noop. Qed.

Theorem C20_timeouts_settle :
  forall (H : Type) (handler : nat -> Z -> H * table -> H * table),
    contract H handler ->
    forall (now : Z) (s : H * table), length (snd s) = NTIMERS ->
      future (snd (handle_timeout H handler now s)) now.
Proof. exact timeouts_settle. Qed.

Theorem C20_timeouts_settle_bounded :
  forall (H : Type) (handler : nat -> Z -> H * table -> H * table) (mu : H -> nat) (now : Z)
         (Inv : H -> Prop),
    contract_b H handler mu now Inv ->
    forall (n : nat) (s : H * table),
      Inv (fst s) -> length (snd s) = NTIMERS -> (mu (fst s) < n)%nat ->
      future (snd (iter H handler n now s)) now.
Proof. exact timeouts_settle_bounded. Qed.

(** the PTO handler with the crate's MAX_BACKOFF_EXPONENT: late by less than
    pto_base * 2^MAX_BACKOFF_EXPONENT  ==>  settles within MAX_BACKOFF_EXPONENT + 1 calls *)
Theorem C20_pto_settles :
  forall (now : Z) (h : Pto) (tb : table),
    pto_inv MAX_BACKOFF_EXPONENT now h -> length tb = NTIMERS ->
    future (snd (iter Pto (pto_handler MAX_BACKOFF_EXPONENT)
                      (S (Z.to_nat MAX_BACKOFF_EXPONENT)) now (h, tb))) now.
Proof. intros now h tb. apply pto_settles. Qed.

Theorem C20_poll_on_empty_queues_is_noop : forall ee : list Z,
  poll (mkQ [] [] None ee) = (None, mkQ [] [] None ee)
  /\ forall q, ep_events q = [] -> poll_endpoint_events q = (None, q).
Proof. exact poll_on_empty_queues_is_noop. Qed.

(** * Time-translation equivariance *)
Theorem C20_shift_equivariant_timer_table : forall d tb op,
  step (shift_table d tb) (shift_op d op)
  = (shift_table d (fst (step tb op)), shift_out d (snd (step tb op))).
Proof. exact shift_equivariant. Qed.

Theorem C20_shift_equivariant_timer_table_seq : forall d l tb,
  steps (shift_table d tb) (map (shift_op d) l)
  = (shift_table d (fst (steps tb l)), map (shift_out d) (snd (steps tb l))).
Proof. intros d l tb. apply (shift_equivariant_fold d l tb []). Qed.

Theorem C20_handle_timeout_equivariant :
  forall (H : Type) (shift_h : Z -> H -> H) (handler : nat -> Z -> H * table -> H * table),
    (forall d i now h tb,
        handler i (now + d) (shift_h d h, shift_table d tb)
        = (shift_h d (fst (handler i now (h, tb))), shift_table d (snd (handler i now (h, tb))))) ->
    forall d now h tb,
      handle_timeout H handler (now + d) (shift_h d h, shift_table d tb)
      = (shift_h d (fst (handle_timeout H handler now (h, tb))),
         shift_table d (snd (handle_timeout H handler now (h, tb)))).
Proof. exact handle_timeout_equivariant. Qed.

Theorem C20_shift_equivariant_mtud : forall MPR BHT fx d m o,
  Mtud.step MPR BHT fx (MT.shift_s d m) (MT.shift_op d o)
  = match Mtud.step MPR BHT fx m o with Some (m', r) => Some (MT.shift_s d m', r) | None => None end.
Proof. exact MT.shift_equivariant. Qed.

Theorem C20_shift_equivariant_mtud_seq : forall MPR BHT fx d l m,
  run_seq _ _ _ (Mtud.step MPR BHT fx) (MT.shift_s d m) (map (MT.shift_op d) l)
  = match run_seq _ _ _ (Mtud.step MPR BHT fx) m l with
    | Some (m', os) => Some (MT.shift_s d m', map (fun x => x) os) | None => None end.
Proof. intros. apply run_seq_equivariant. intros. apply MT.shift_equivariant. Qed.

Theorem C20_shift_equivariant_pending_acks : forall M d s o,
  PendingAcks.step M (PA.shift_s d s) (PA.shift_op d o)
  = match PendingAcks.step M s o with Some (s', out) => Some (PA.shift_s d s', out) | None => None end.
Proof. exact PA.shift_equivariant. Qed.

Theorem C20_shift_equivariant_pending_acks_seq : forall M d l s,
  run_seq _ _ _ (PendingAcks.step M) (PA.shift_s d s) (map (PA.shift_op d) l)
  = match run_seq _ _ _ (PendingAcks.step M) s l with
    | Some (s', os) => Some (PA.shift_s d s', map (fun x => x) os) | None => None end.
Proof. intros. apply run_seq_equivariant. intros. apply PA.shift_equivariant. Qed.

Theorem C20_shift_equivariant_stateless_reset : forall d s kind now len hint,
  StatelessReset.handle (SR.shift_s d s) kind (now + d) len hint
  = match StatelessReset.handle s kind now len hint with
    | Some (s', o) => Some (SR.shift_s d s', o) | None => None end.
Proof. exact SR.handle_equivariant. Qed.

Theorem C20_shift_equivariant_bloom_log : forall fmb d s nonce issued lifetime fpr,
  BloomLog.check fmb (BL.shift_s d s) nonce (issued + d) lifetime fpr
  = (BL.shift_s d (fst (BloomLog.check fmb s nonce issued lifetime fpr)),
     snd (BloomLog.check fmb s nonce issued lifetime fpr)).
Proof. exact BL.shift_equivariant. Qed.

Theorem C20_shift_equivariant_cid_state : forall d s o,
  CidState.step (CS.shift_s d s) (CS.shift_op d o)
  = match CidState.step s o with
    | Some (s', out) =>
        Some (CS.shift_s d s', CS.set_nt (CS.optz (shift_o d (CS.next_timeout_o s'))) out)
    | None => None
    end.
Proof. exact CS.shift_equivariant. Qed.

Print Assumptions C20_next_timeout_is_min.
Print Assumptions C20_spurious_timeout_noop.
Print Assumptions C20_timeouts_settle.
Print Assumptions C20_timeouts_settle_bounded.
Print Assumptions C20_pto_settles.
Print Assumptions C20_poll_on_empty_queues_is_noop.
Print Assumptions C20_shift_equivariant_timer_table.
Print Assumptions C20_shift_equivariant_timer_table_seq.
Print Assumptions C20_handle_timeout_equivariant.
Print Assumptions C20_shift_equivariant_mtud.
Print Assumptions C20_shift_equivariant_mtud_seq.
Print Assumptions C20_shift_equivariant_pending_acks.
Print Assumptions C20_shift_equivariant_pending_acks_seq.
Print Assumptions C20_shift_equivariant_stateless_reset.
Print Assumptions C20_shift_equivariant_bloom_log.
Print Assumptions C20_shift_equivariant_cid_state.

(** * Non-vacuity and sharpness *)
(** a table with LossDetection (0) and KeepAlive (5) expired at now = 100, Idle (1) in the future *)
Definition ex_tb : table := [Some 90; Some 5000; None; None; None; Some 100; None; None; None].

(** a handler meeting the strict contract: KeepAlive re-armed at now + 25, LossDetection at now + 7 *)
Definition good_handler (i : nat) (now : Z) (s : unit * table) : unit * table :=
  match i with
  | 0%nat => (tt, set (snd s) 0 (now + 7))
  | 5%nat => (tt, set (snd s) 5 (now + 25))
  | _ => s
  end.
Example settle_example :
  handle_timeout unit good_handler 100 (tt, ex_tb)
  = (tt, [Some 107; Some 5000; None; None; None; Some 125; None; None; None])
  /\ next_timeout (snd (handle_timeout unit good_handler 100 (tt, ex_tb))) = Some 107.
Proof. split; vm_compute; reflexivity. Qed.

(** the mutant that re-arms KeepAlive AT [now] breaks the contract and never settles *)
Definition bad_handler (i : nat) (now : Z) (s : unit * table) : unit * table :=
  match i with 5%nat => (tt, set (snd s) 5 now) | _ => s end.
Example settle_needs_contract :
  forall n, next_timeout (snd (iter unit bad_handler n 100 (tt, stop ex_tb 0))) = Some 100.
Proof.
  assert (Hfix : handle_timeout unit bad_handler 100 (tt, stop ex_tb 0) = (tt, stop ex_tb 0))
    by (vm_compute; reflexivity).
  induction n as [|n IH]; [vm_compute; reflexivity|].
  cbn [iter]. rewrite Hfix. exact IH.
Qed.

(** PTO serviced 50 ms late with a 1 ms base: one call is not enough, six are *)
Definition ex_pto : Pto := mkPto 0 0 1000.
Example pto_inv_example : pto_inv MAX_BACKOFF_EXPONENT 50000 ex_pto.
Proof. unfold pto_inv; vm_compute; repeat split; discriminate || reflexivity. Qed.
Example pto_example :
  next_timeout (snd (iter Pto (pto_handler MAX_BACKOFF_EXPONENT) 1 50000 (ex_pto, set empty 0 1000))) = Some 2000
  /\ next_timeout (snd (iter Pto (pto_handler MAX_BACKOFF_EXPONENT) 5 50000 (ex_pto, set empty 0 1000))) = Some 32000
  /\ next_timeout (snd (iter Pto (pto_handler MAX_BACKOFF_EXPONENT) 6 50000 (ex_pto, set empty 0 1000))) = Some 64000.
Proof. repeat split; vm_compute; reflexivity. Qed.

(** a spurious call at 50 on [ex_tb] shifted: nothing expired *)
Example spurious_example :
  handle_timeout unit bad_handler 50 (tt, ex_tb) = (tt, ex_tb) /\ future ex_tb 50.
Proof. split; vm_compute; reflexivity. Qed.

(** shift by 977_777_777 of a Mtud state in the Complete phase: the poll decision is the same *)
Example mtud_shift_example :
  let m := Mtud.mkMtud 1400 (Some (Mtud.mkEnabled (Mtud.Complete 600000000) 1452 (Mtud.mkConfig 1452 600000000 60000000 20))) (Mtud.bhd_new 1200) in
  Mtud.step 3 3 true m (Mtud.OPoll 599999999 7) = Some (m, -1)
  /\ Mtud.step 3 3 true (MT.shift_s 977777777 m) (Mtud.OPoll (599999999 + 977777777) 7)
     = Some (MT.shift_s 977777777 m, -1)
  /\ exists m' p, Mtud.step 3 3 true m (Mtud.OPoll 600000000 7) = Some (m', p) /\ 1400 < p.
Proof.
  cbn zeta. split; [vm_compute; reflexivity|]. split; [vm_compute; reflexivity|].
  eexists; eexists; split; [vm_compute; reflexivity | vm_compute; reflexivity].
Qed.
