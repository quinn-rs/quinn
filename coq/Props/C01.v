(** C01 — Stream data is delivered reliably, in order and exactly once.
    Each property theorem is closed by [exact] of a lemma proved under Proofs/ and followed by
    [Print Assumptions]; the refutation witnesses and the non-vacuity examples at the end are
    closed by evaluation. Models: Model/Assembler.v, Model/SendBuffer.v, Model/RangeSet.v,
    Model/ArrayRangeSet.v (tied to the code by the correspondence check on every run); the
    composed system (sender + network + receiver) is defined in Proofs/StreamSysProofs.v.

    FULL STATEMENT and what is proved of it:
    - no alteration, in-order gap-free prefix for ordered reads, exact content for unordered reads,
      for all schedules of the composed system: PROVED ([C01_stream_no_alteration]);
    - exactly once: no stream offset is covered by two returned chunks, ordered or unordered,
      before or after the mode switch, for all executions: PROVED ([C01_assembler_exactly_once],
      [C01_assembler_unordered_disjoint], [C01_stream_exactly_once]); it rests on the set
      semantics of the BTree RangeSet ([C01_range_set_replace], [C01_range_set_insert]) and is
      REFUTED for the code before the two repairs ([C01_unfixed_*_refuted]);
    - no byte lost / progress of reads ([C01_full_assembler_progress]): NOT proved — it needs the
      heap-order invariant of the BinaryHeap model (the heap operations are proved to be
      permutations, [C01_heap_ops_permute], not yet to keep the maximum at the root); checked on
      every run by the oracle (an ordered read returns nothing only if the next byte was never
      inserted);
    - end-of-stream / reset code: at the Recv/Chunks level, handled under C11 (another check). *)
From QV Require Import Lib.Tac Lib.Bytes Lib.Corr Lib.RangeSpec Model.RangeSet Model.ArrayRangeSet
  Model.Assembler Model.SendBuffer Proofs.HeapProofs Proofs.AssemblerProofs Proofs.SendBufferProofs
  Proofs.StreamSysProofs Proofs.RangeSetProofs Proofs.BTreeRangeSetProofs Proofs.AssemblerOnceProofs.
Open Scope Z_scope.

(* ------------------------------------------------------------------ the composed system *)
(** [stream_no_alteration]: for EVERY schedule of the one-stream two-peer system — any application
    writes, any poll_transmit sizes, any acks / losses / re-chunked retransmissions / 0-RTT restart
    on the sender, the network delivering any previously produced frame any number of times in any
    order (or never), interleaved in any way with receiver reads of any size, ordered or unordered,
    mode switches and clear — on which the models do not panic: the bytes returned by ordered reads
    are, concatenated, a prefix of the bytes the sending application wrote, returned as
    consecutive chunks from offset 0; every chunk returned by any read equals the written bytes at
    its offset and lies within what was written. *)
Theorem C01_stream_no_alteration : forall sched st',
  Forall sched_ok sched -> sys_exec sys_init sched = Some st' ->
  let W := written st' in
  let evs := events st' in
  AssemblerProofs.obytes evs = firstn (length (AssemblerProofs.obytes evs)) W /\
  chain 0 (filter ev_ord evs) /\
  Forall (fun e => ev_bytes e = SendBufferProofs.slice W (ev_off e) (zlen (ev_bytes e)) /\
                   (ev_bytes e = [] \/ 0 <= ev_off e /\ ev_off e + zlen (ev_bytes e) <= zlen W)) evs.
Proof. exact stream_no_alteration. Qed.
Print Assumptions C01_stream_no_alteration.

(** [stream_exactly_once]: in the composed system no stream offset is delivered to the receiving
    application twice, whatever the network duplicates, re-delivers or reorders and whatever the
    sender retransmits. *)
Theorem C01_stream_exactly_once : forall sched st' x,
  Forall sched_ok sched -> sys_exec sys_init sched = Some st' ->
  AssemblerOnceProofs.cnt x (events st') <= 1.
Proof. exact stream_exactly_once. Qed.
Print Assumptions C01_stream_exactly_once.

(* ------------------------------------------------------------------ Assembler *)
(** (a) For EVERY sequence of operations on one Assembler (inserts of slices of the written
    sequence [w] below the bound [hi], in any order, with any overlaps, duplicates and allocation
    sizes, reads with any max_length, mode switches, clear, probes) on which the model does not
    panic: the concatenation of the chunks returned by ordered reads is the prefix of [w] of
    exactly that length, never beyond [hi]; the chunks are consecutive from offset 0; while the
    stream is in ordered mode [bytes_read] is that length. *)
Theorem C01_assembler_ordered_prefix : forall (w : Z -> Z) (hi : Z) os a' evs,
  Forall (AssemblerProofs.op_ok w hi) os ->
  AssemblerProofs.exec Assembler.init os = Some (a', evs) ->
  obytes evs = wslice w 0 (length (obytes evs)) /\
  (obytes evs = [] \/ zlen (obytes evs) <= hi) /\
  chain 0 (filter ev_ord evs) /\
  (Assembler.ordered a' = true -> Assembler.bytes_read a' = zlen (obytes evs)).
Proof. exact AssemblerProofs.ordered_prefix. Qed.
Print Assumptions C01_assembler_ordered_prefix.

(** (b), content half: every chunk returned by ANY read, ordered or unordered, before or after
    the mode switch, equals the written sequence at its offset and lies below [hi]. *)
Theorem C01_assembler_reads_exact : forall (w : Z -> Z) (hi : Z) os a' evs,
  Forall (AssemblerProofs.op_ok w hi) os ->
  AssemblerProofs.exec Assembler.init os = Some (a', evs) ->
  Forall (fun e => ev_bytes e = wslice w (ev_off e) (length (ev_bytes e)) /\
                   (ev_bytes e = [] \/ (0 <= ev_off e /\ ev_off e + zlen (ev_bytes e) <= hi))) evs.
Proof. exact AssemblerProofs.reads_exact. Qed.
Print Assumptions C01_assembler_reads_exact.

(** (b), exactly-once half: for EVERY execution, every stream offset is covered by at most one
    returned chunk ([cnt x evs] = number of returned chunks containing offset [x]) — ordered or
    unordered reads, before or after the ordered->unordered switch, whatever is re-inserted. *)
Theorem C01_assembler_exactly_once : forall (w : Z -> Z) (hi : Z) os a' evs x,
  Forall (AssemblerProofs.op_ok w hi) os ->
  AssemblerProofs.exec Assembler.init os = Some (a', evs) ->
  AssemblerOnceProofs.cnt x evs <= 1.
Proof. exact AssemblerOnceProofs.delivered_at_most_once. Qed.
Print Assumptions C01_assembler_exactly_once.

(** ... hence any two distinct returned chunks are disjoint (empty chunks, returned by reads with
    max_length = 0, carry no byte). *)
Theorem C01_assembler_unordered_disjoint : forall (w : Z -> Z) (hi : Z) os a' evs,
  Forall (AssemblerProofs.op_ok w hi) os ->
  AssemblerProofs.exec Assembler.init os = Some (a', evs) ->
  forall i j ei ej, i <> j -> nth_error evs i = Some ei -> nth_error evs j = Some ej ->
    ev_bytes ei = [] \/ ev_bytes ej = [] \/
    ev_off ei + zlen (ev_bytes ei) <= ev_off ej \/ ev_off ej + zlen (ev_bytes ej) <= ev_off ei.
Proof. exact AssemblerOnceProofs.unordered_disjoint. Qed.
Print Assumptions C01_assembler_unordered_disjoint.

(** (c) progress — full statement, NOT proved (see the header): in ordered mode, if some buffered
    chunk covers [bytes_read], a read with max_length > 0 returns a non-empty chunk. *)
Definition C01_full_assembler_progress : Prop := forall (w : Z -> Z) (hi : Z) os a evs m,
  Forall (AssemblerProofs.op_ok w hi) os ->
  AssemblerProofs.exec Assembler.init os = Some (a, evs) ->
  Assembler.ordered a = true -> 0 < m ->
  (exists b, In b (Assembler.data a) /\ b_off b <= Assembler.bytes_read a < bend b) ->
  exists a' off x bytes, Assembler.read a m true = Some (a', Some (off, x :: bytes)).

(** (d), content half: defragmentation (heap sort, trimming of overlaps, copying of contiguous
    runs into one buffer) keeps every buffered chunk a slice of [w] and does not touch
    [bytes_read] / the mode. *)
Theorem C01_assembler_defragment_preserves_content : forall (w : Z -> Z) (hi : Z) fixed a,
  Forall (good w hi) (Assembler.data a) ->
  Forall (good w hi) (Assembler.data (Assembler.defragment fixed a)) /\
  Assembler.bytes_read (Assembler.defragment fixed a) = Assembler.bytes_read a /\
  Assembler.ordered (Assembler.defragment fixed a) = Assembler.ordered a.
Proof. exact AssemblerProofs.defragment_preserves_content. Qed.
Print Assumptions C01_assembler_defragment_preserves_content.

(** The binary heap never loses or invents a buffer: push / pop / into_sorted_vec permute. *)
Theorem C01_heap_ops_permute : forall h x,
  Permutation.Permutation (Assembler.push h x) (x :: h) /\
  Permutation.Permutation (Assembler.into_sorted_vec h) h /\
  (forall top h', Assembler.pop h = Some (top, h') -> Permutation.Permutation h (top :: h')).
Proof. exact HeapProofs.heap_ops_permute. Qed.
Print Assumptions C01_heap_ops_permute.

(* ------------------------------------------------------------------ SendBuffer *)
(** [sendbuffer_frames_sound]: for EVERY op sequence (writes in any chunking, poll_transmit with
    any max_len, acks and losses of any ranges in any order, re-chunked retransmits,
    retransmit_all_for_0rtt) on which the model does not panic, every frame produced by
    poll_transmit + the copy loop of write_stream_frames carries exactly the bytes the application
    wrote at those offsets. *)
Theorem C01_sendbuffer_frames_sound : forall os s' W' fs,
  SendBufferProofs.exec SendBuffer.init [] os = Some (s', W', fs) ->
  Forall (frame_ok W') fs.
Proof. exact SendBufferProofs.frames_sound. Qed.
Print Assumptions C01_sendbuffer_frames_sound.

(** [sendbuffer_get_progress] (local form): inside the buffered window
    [offset - unacked_len, offset) a [get] for a non-empty range returns a non-empty slice, so the
    copy loop advances.  The ownership invariant (every byte of [0, offset) in exactly one of
    unsent / in flight / to retransmit / acked, under the environment assumption that only
    in-flight ranges are acked or declared lost), which places every polled range inside that
    window, is NOT proved (it needs the set semantics of the BTree RangeSet); it is checked on
    every run by the oracle of Model/SendBuffer.v. *)
Theorem C01_sendbuffer_get_progress : forall W s gs ge,
  SendBufferProofs.inv W s ->
  SendBufferProofs.base s <= gs -> gs < ge -> gs < SendBuffer.offset s ->
  exists b d, SendBuffer.get s gs ge = Some (b :: d).
Proof. exact SendBufferProofs.get_progress. Qed.
Print Assumptions C01_sendbuffer_get_progress.

(* ------------------------------------------------------------------ range sets *)
(** ArrayRangeSet.insert: representation invariant (ascending, non-empty, disjoint, NON-ADJACENT)
    preserved, the result denotes the union, and the returned flag is true iff something new was
    added.  (ArrayRangeSet.remove is tied by correspondence and by the reference specification
    Lib/RangeSpec.v used as oracle; its invariant is not proved.) *)
Theorem C01_array_range_set_insert : forall l xs xe,
  RangeSetProofs.wf l -> 0 <= xs ->
  let '(b, l') := ArrayRangeSet.insert xs xe l in
  RangeSetProofs.wf l' /\
  (forall x, RangeSetProofs.mem x l' <-> RangeSetProofs.mem x l \/ xs <= x < xe) /\
  (b = true <-> exists x, xs <= x < xe /\ ~ RangeSetProofs.mem x l).
Proof. intros l xs xe W _. exact (RangeSetProofs.array_insert_correct l xs xe W). Qed.
Print Assumptions C01_array_range_set_insert.

(** BTree RangeSet (the [recvd] set of the Assembler, [acks]/[retransmits] of the SendBuffer):
    on a well-formed map (ascending, non-empty, NON-ADJACENT ranges) [replace] — with the Replace
    iterator drained by a for loop and then dropped, as Assembler::insert does — returns a
    well-formed map denoting the union, and the items seen by the loop are ascending sub-ranges of
    the new range that cover exactly its part already present; [insert] returns a well-formed map
    denoting the union. *)
Theorem C01_range_set_replace : forall m lo xs xe,
  RangeSetProofs.wfb lo m -> lo < xs -> xs < xe ->
  let '(dups, m') := RangeSet.replace xs xe m in
  RangeSetProofs.wfb lo m' /\
  (forall x, RangeSetProofs.mem x m' <-> RangeSetProofs.mem x m \/ xs <= x < xe) /\
  its_sorted xs xe dups /\
  (forall x, xs <= x < xe -> (RangeSetProofs.mem x m <-> in_its x dups)).
Proof. exact BTreeRangeSetProofs.replace_spec. Qed.
Print Assumptions C01_range_set_replace.

Theorem C01_range_set_insert : forall m lo xs xe,
  RangeSetProofs.wfb lo m -> lo < xs -> xs < xe ->
  RangeSetProofs.wfb lo (snd (RangeSet.insert xs xe m)) /\
  (forall x, RangeSetProofs.mem x (snd (RangeSet.insert xs xe m)) <-> RangeSetProofs.mem x m \/ xs <= x < xe).
Proof. exact BTreeRangeSetProofs.insert_spec. Qed.
Print Assumptions C01_range_set_insert.

(* ------------------------------------------------------------------ refutation witnesses *)
(** The code BEFORE the two repairs violates exactly-once delivery; the model of the unrepaired
    code ([run_unfixed]) exhibits it and the property oracle rejects those outputs.  Both were
    replayed on the real code (see the repository commits `fix: Assembler::...`). *)
Definition witness_empty_frame : ops :=
  [[7; 0]; [2; 0]; [0; 7; 10]; [0; 8; 10; 59]; [0; 5; 10; 38; 45; 52; 59];
   [1; 100; 0]; [1; 100; 0]; [3]].
Example C01_unfixed_empty_frame_refuted :
  Assembler.run_unfixed witness_empty_frame =
    [[0]; [0]; [0]; [0]; [0]; [1; 5; 38; 45; 52; 59]; [1; 8; 59]; [5]] /\
  Assembler.oracle witness_empty_frame (Assembler.run_unfixed witness_empty_frame) = false /\
  Assembler.oracle witness_empty_frame (Assembler.run witness_empty_frame) = true.
Proof. vm_compute. repeat split. Qed.

Definition witness_stale_chunk : ops :=
  [[7; 0]; [0; 0; 3; 3; 10; 17]; [0; 0; 3; 3; 10; 17]; [1; 3; 1]; [1; 100; 0]; [3]].
Example C01_unfixed_stale_chunk_refuted :
  Assembler.run_unfixed witness_stale_chunk =
    [[0]; [0]; [0]; [1; 0; 3; 10; 17]; [1; 0; 3; 10; 17]; [6]] /\
  Assembler.oracle witness_stale_chunk (Assembler.run_unfixed witness_stale_chunk) = false /\
  Assembler.oracle witness_stale_chunk (Assembler.run witness_stale_chunk) = true.
Proof. vm_compute. repeat split. Qed.

(** Counterexample to the STRICT ownership invariant of the SendBuffer ("each byte of [0, offset)
    is in exactly one of unsent / in flight / to retransmit / acked"), found by the seed sweep and
    identical on the real code: after [retransmit(0..3)] the restart [retransmit_all_for_0rtt]
    only resets [unsent]; bytes 0..3 are then both "to retransmit" and "unsent" and poll_transmit
    hands them out twice.  The duplicate is harmless for C01 (frames stay sound, the receiver
    de-duplicates) and the situation does not arise in Connection (0-RTT data is never declared
    lost before the Retry / rejection that triggers the restart), so the oracle treats the restart
    with a pending lost range as outside the valid environment; it is recorded here, not as a
    violation. *)
Example C01_sendbuffer_ownership_counterexample :
  SendBuffer.run [[0; 1; 2; 3]; [1; 37]; [4; 0; 3]; [5]; [1; 30]; [1; 30]] =
    [[0]; [0; 0; 3; 1; 1; 2; 3]; [0]; [0]; [0; 0; 3; 1; 1; 2; 3]; [0; 0; 3; 1; 1; 2; 3]].
Proof. vm_compute. reflexivity. Qed.

(* ------------------------------------------------------------------ non-vacuity *)
Definition pat (x : Z) : Z := Assembler.w 0 x.
Example C01_assembler_example :
  let os := [OInsert 3 40000 [pat 3; pat 4; pat 5]; OInsert 0 5 [pat 0; pat 1; pat 2; pat 3];
             OInsert 0 5 [pat 0; pat 1; pat 2; pat 3]; ORead 2 true; OInsert 1 40000 [pat 1; pat 2];
             ORead 100 true; ORead 100 true; ORead 100 false] in
  exists a' evs, AssemblerProofs.exec Assembler.init os = Some (a', evs) /\
                 obytes evs = [pat 0; pat 1; pat 2; pat 3; pat 4; pat 5] /\ length evs = 3%nat.
Proof. eexists; eexists. split; [vm_compute; reflexivity|]. vm_compute. split; reflexivity. Qed.

Example C01_sendbuffer_example :
  let os := [OWrite [1; 2; 3]; OWrite [4; 5; 6; 7; 8; 9; 10; 11; 12; 13; 14; 15; 16; 17; 18; 19; 20];
             OPoll 16; ORetransmit 0 16; OWrite [21]; OPoll 18; OAck 0 10; OPoll 16; OPoll 100] in
  exists s' W' fs, SendBufferProofs.exec SendBuffer.init [] os = Some (s', W', fs) /\
    fs = [(true, 0, 16, [1;2;3;4;5;6;7;8;9;10;11;12;13;14;15;16]);
          (true, 0, 10, [1;2;3;4;5;6;7;8;9;10]);
          (true, 10, 16, [11;12;13;14;15;16]);
          (true, 16, 21, [17;18;19;20;21])].
Proof. do 3 eexists. split; vm_compute; reflexivity. Qed.

(** a schedule of the composed system with loss, duplication, reordering and re-chunking:
    write 12 bytes; transmit [0,12); the frame is declared lost and re-sent as [0,8) + [8,12); the
    second half arrives first and twice, the "lost" frame arrives late too. *)
Example C01_stream_example :
  let sched := [SSend (OWrite [10; 20; 30]); SSend (OWrite [40; 50; 60; 70; 80; 90; 100; 110; 120]);
                SSend (OPoll 100); SSend (ORetransmit 0 12); SSend (OPoll 16); SSend (OPoll 100);
                SDeliver 2 1200; SDeliver 2 1200; SRecv (ORead 100 true); SDeliver 1 1200;
                SRecv (ORead 1 true); SDeliver 0 1200; SRecv (ORead 100 true); SRecv (ORead 100 true)] in
  Forall sched_ok sched /\
  exists st', sys_exec sys_init sched = Some st' /\
              frames st' = [(true, 0, 12, [10; 20; 30; 40; 50; 60; 70; 80; 90; 100; 110; 120]);
                            (true, 0, 8, [10; 20; 30; 40; 50; 60; 70; 80]);
                            (true, 8, 12, [90; 100; 110; 120])] /\
              AssemblerProofs.obytes (events st') = [10; 20; 30; 40; 50; 60; 70; 80; 90; 100; 110; 120] /\
              length (events st') = 2%nat.
Proof.
  split; [repeat constructor; cbn; lia|].
  eexists. split; [vm_compute; reflexivity|]. vm_compute. repeat split.
Qed.
