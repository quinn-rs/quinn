(** C14 — Validation tokens and Retry cannot be forged, moved or replayed (component level).
    Property theorems only; proofs under Proofs/{BloomLog,TokenCache,TokenDecision}Proofs.v.
    Models: Model/BloomLog.v, Model/TokenCache.v, Model/TokenDecision.v (each tied to the Rust
    code by the correspondence check on every run).  Cryptography (Token::decode = AEAD open
    under an HKDF-derived key) is an explicit premise of the token-decision theorems. *)
From QV Require Import Lib.Tac Lib.Corr Model.BloomLog Model.TokenCache Model.TokenDecision.
From QV Require Proofs.BloomLogProofs Proofs.TokenCacheProofs Proofs.TokenDecisionProofs.
Open Scope Z_scope.

(** * BloomTokenLog: NEW_TOKEN tokens are accepted at most once *)

(** For all histories of [check_and_insert] with one non-zero lifetime [L] and arbitrary
    (nonce, issued) arguments — clock monotonicity not assumed, any memory budget (so wherever
    the Set -> Bloom switch happens), any false-positive behaviour of the Bloom filters —
    no (nonce, issued) pair is accepted twice, across both turnover arms. *)
Theorem C14_bloom_single_use : forall fmb L h s' rs,
  0 < L ->
  BloomLogProofs.exec fmb L BloomLog.init h = (s', rs) ->
  forall i j n t fi fj,
    (i < j)%nat ->
    nth_error h i = Some (n, t, fi) -> nth_error h j = Some (n, t, fj) ->
    nth_error rs i = Some true -> nth_error rs j = Some false.
Proof. exact BloomLogProofs.bloom_single_use. Qed.
Print Assumptions C14_bloom_single_use.

(** The same at the level of the 64-bit fingerprint the log really stores. *)
Theorem C14_bloom_single_use_fingerprint : forall fmb L h s' rs,
  0 < L -> BloomLogProofs.exec fmb L BloomLog.init h = (s', rs) ->
  forall i j n n' t fi fj, (i < j)%nat ->
    nth_error h i = Some (n, t, fi) -> nth_error h j = Some (n', t, fj) ->
    n mod 2 ^ 64 = n' mod 2 ^ 64 ->
    nth_error rs i = Some true -> nth_error rs j = Some false.
Proof. exact BloomLogProofs.bloom_single_use_fp. Qed.
Print Assumptions C14_bloom_single_use_fingerprint.

Theorem C14_bloom_zero_lifetime_rejects : forall fmb s n t fp,
  BloomLog.check fmb s n t 0 fp = (s, false).
Proof. exact BloomLogProofs.bloom_zero_lifetime_rejects. Qed.
Print Assumptions C14_bloom_zero_lifetime_rejects.

(** While both filters are exact hash sets the false-positive oracle is irrelevant, and no
    representation change ever drops a member. *)
Theorem C14_bloom_set_mode_exact : forall fmb s n t L,
  is_bloom (f1 s) = false -> is_bloom (f2 s) = false ->
  BloomLog.check fmb s n t L true = BloomLog.check fmb s n t L false.
Proof. exact BloomLogProofs.bloom_set_mode_exact. Qed.
Print Assumptions C14_bloom_set_mode_exact.

Theorem C14_bloom_conversion_preserves_membership : forall fmb f fp b x,
  BloomLog.mem x (elems f) = true ->
  BloomLog.mem x (elems (fst (filter_check fmb f fp b))) = true.
Proof. exact (fun fmb f fp b => proj2 (BloomLogProofs.filter_check_mem fmb f fp b)). Qed.
Print Assumptions C14_bloom_conversion_preserves_membership.

(** * TokenMemoryCache: each stored token is handed out at most once *)

(** Over all insert/take histories and all capacities (including 0): the implementation never
    panics (the [unwrap]s are safe), at most [max_server_names] entries, queues never empty and
    at most [max_tokens_per_server] long, and the multiset of (server, token) pairs returned by
    [take] is included in the multiset inserted. *)
Theorem C14_cache_hands_out_once : forall mn mt h,
  0 <= mn -> 0 <= mt ->
  exists s out,
    TokenCacheProofs.exec (TokenCache.init mn mt) h = Some (s, out) /\
    TokenCacheProofs.Inv s /\ max_names s = mn /\ max_tokens s = mt /\
    (forall x, (TokenCacheProofs.count x out <= TokenCacheProofs.count x (TokenCacheProofs.inserted h))%nat).
Proof. exact TokenCacheProofs.cache_hands_out_once. Qed.
Print Assumptions C14_cache_hands_out_once.

Theorem C14_cache_zero_capacity : forall mn mt h,
  (mn = 0 \/ mt = 0) -> exists s, TokenCacheProofs.exec (TokenCache.init mn mt) h = Some (s, []).
Proof. exact TokenCacheProofs.cache_zero_capacity. Qed.
Print Assumptions C14_cache_zero_capacity.

(** [take] hands out the oldest token of the server; a full queue drops its oldest token. *)
Theorem C14_cache_take_is_fifo : forall s n k q rest,
  TokenCacheProofs.Inv s -> extract n (lru s) = Some (k :: q, rest) ->
  exists s', take s n = Some (s', Some k).
Proof.
  intros s n k q rest _ Hex. eexists. exact (TokenCacheProofs.take_is_fifo_state s n k q rest Hex).
Qed.
Print Assumptions C14_cache_take_is_fifo.

(** Eviction is least-recently-used: a new server name in a full cache evicts exactly the last
    entry of the recency order; storing to or taking from a present name moves it to the front
    and never reorders the others. *)
Theorem C14_cache_eviction_is_lru : forall s n k,
  TokenCacheProofs.Inv s -> 0 < max_names s -> 0 < max_tokens s ->
  (extract n (lru s) = None -> max_names s <= TokenCache.zlen (lru s) ->
   lru (store s n k) = (n, [k]) :: removelast (lru s)) /\
  (extract n (lru s) = None -> TokenCache.zlen (lru s) < max_names s ->
   lru (store s n k) = (n, [k]) :: lru s) /\
  (In n (map fst (lru s)) -> map fst (lru (store s n k)) = n :: remove Z.eq_dec n (map fst (lru s))) /\
  (forall t t2 q rest, extract n (lru s) = Some (t :: t2 :: q, rest) ->
     exists s', take s n = Some (s', Some t) /\ map fst (lru s') = n :: remove Z.eq_dec n (map fst (lru s))) /\
  (forall t rest, extract n (lru s) = Some ([t], rest) ->
     exists s', take s n = Some (s', Some t) /\ map fst (lru s') = remove Z.eq_dec n (map fst (lru s))).
Proof. exact TokenCacheProofs.cache_eviction_is_lru. Qed.
Print Assumptions C14_cache_eviction_is_lru.

(** * IncomingToken::from_header: validated implies genuine *)
Section TokenDecision.
  Variables (key bytes : Type).
  Variable seal : key -> token -> bytes.
  Variable open : key -> bytes -> option token.
  Variable is_empty : bytes -> bool.
  Variable k : key.
  Variable issued_by_server : token -> Prop.
  (** AEAD assumption (INT-CTXT), the only cryptographic premise: whatever decodes under the
      server's key is the unmodified encoding of a token this server sealed. *)
  Hypothesis unforgeable : forall b t, open k b = Some t -> issued_by_server t /\ b = seal k t.

  Let from_header := TokenDecisionProofs.from_header key bytes open is_empty k.

  (** [validated = true] implies: the bytes are the unmodified encoding of a token issued under
      this server's key, and (Retry) presented from exactly the address and port it was issued to
      within [retry_token_lifetime], or (NEW_TOKEN) from the same IP, within its lifetime and
      accepted by the token log at this very call. *)
  Theorem C14_validated_implies_genuine : forall c log now raddr rport dcid b log' rsc od,
    from_header c log now raddr rport dcid b = (log', Incoming rsc od true) ->
    exists t, issued_by_server t /\ b = seal k t /\ is_empty b = false /\
      match pl t with
      | Retry addr port odcid iss =>
          addr = raddr /\ port = rport /\ now <= iss + retry_lt c /\
          rsc = Some dcid /\ od = odcid /\ log' = log
      | Validation ip iss =>
          ip = raddr /\ now <= iss + val_lt c /\ rsc = None /\ od = dcid /\
          BloomLog.check (log_fmb c) log (nonce t) iss (val_lt c) false = (log', true)
      end.
  Proof. exact (TokenDecisionProofs.validated_implies_genuine key bytes seal open is_empty k issued_by_server unforgeable). Qed.

  (** Any altered or foreign token is treated exactly as an absent one (log untouched). *)
  Theorem C14_altered_token_is_absent : forall c log now raddr rport dcid b,
    (forall t, issued_by_server t -> b <> seal k t) ->
    from_header c log now raddr rport dcid b = (log, unvalidated dcid).
  Proof. exact (TokenDecisionProofs.not_issued_is_absent key bytes seal open is_empty k issued_by_server unforgeable). Qed.

  (** A stale or misplaced Retry token ends the attempt (INVALID_TOKEN). *)
  Theorem C14_stale_or_misplaced_retry_is_invalid : forall c log now raddr rport dcid b t addr port od iss,
    is_empty b = false -> open k b = Some t -> pl t = Retry addr port od iss ->
    (addr <> raddr \/ port <> rport \/ iss + retry_lt c < now) ->
    from_header c log now raddr rport dcid b = (log, InvalidRetryToken).
  Proof. exact (TokenDecisionProofs.stale_or_misplaced_retry_is_invalid key bytes open is_empty k). Qed.

  Theorem C14_stale_or_misplaced_validation_is_absent : forall c log now raddr rport dcid b t ip iss,
    open k b = Some t -> pl t = Validation ip iss ->
    (ip <> raddr \/ iss + val_lt c < now) ->
    from_header c log now raddr rport dcid b = (log, unvalidated dcid).
  Proof. exact (TokenDecisionProofs.stale_or_misplaced_validation_is_absent key bytes open is_empty k). Qed.

  (** Over any history of presentations starting from a fresh log, two presentations of
      NEW_TOKEN tokens with the same nonce fingerprint and issue time (in particular of the same
      token) are never both validated. *)
  Theorem C14_validation_token_single_use : forall c h,
    0 <= val_lt c ->
    forall i j p q t t' ip ip' iss,
      (i < j)%nat -> nth_error h i = Some p -> nth_error h j = Some q ->
      open k (snd p) = Some t -> pl t = Validation ip iss ->
      open k (snd q) = Some t' -> pl t' = Validation ip' iss ->
      nonce t mod 2 ^ 64 = nonce t' mod 2 ^ 64 ->
      forall oi oj,
        nth_error (TokenDecisionProofs.serve key bytes open is_empty k c BloomLog.init h) i = Some oi ->
        nth_error (TokenDecisionProofs.serve key bytes open is_empty k c BloomLog.init h) j = Some oj ->
        TokenDecisionProofs.is_validated oi = true -> TokenDecisionProofs.is_validated oj = false.
  Proof. exact (TokenDecisionProofs.validation_token_single_use key bytes open is_empty k). Qed.
End TokenDecision.
Print Assumptions C14_validated_implies_genuine.
Print Assumptions C14_altered_token_is_absent.
Print Assumptions C14_stale_or_misplaced_retry_is_invalid.
Print Assumptions C14_stale_or_misplaced_validation_is_absent.
Print Assumptions C14_validation_token_single_use.

(** Non-vacuity. *)
Example C14_bloom_example :
  snd (BloomLogProofs.exec 0 10 BloomLog.init
         [(1, 0, false); (1, 0, false); (2, 12, false); (1, 0, false); (3, 100, false); (3, 100, false)]) =
  [true; false; true; false; true; false].
Proof. vm_compute. reflexivity. Qed.
Example C14_cache_example :
  TokenCacheProofs.exec (TokenCache.init 2 2) TokenCacheProofs.cache_example_history
  = Some (TokenCache.mk 2 2 [(3, [31]); (2, [21])], [(1, 11); (3, 30); (1, 12)]).
Proof. exact TokenCacheProofs.cache_example. Qed.
Example C14_aead_assumption_consistent : forall k b t,
  TokenDecisionProofs.ideal_open k b = Some t -> True /\ b = TokenDecisionProofs.ideal_seal k t.
Proof. exact TokenDecisionProofs.ideal_unforgeable. Qed.
