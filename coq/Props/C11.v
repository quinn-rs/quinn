(** C11 — Stream operations follow the QUIC stream state machine.
    Proofs: Proofs/StreamSMProofs.v, FinishedOnce.v. Implementation model:
    Model/StreamSM.v over Model/FlowRecv.v; specification: Model/StreamSpec.v.  On every run the
    model is compared verbatim with the code and the specification, run on the op sequence, must
    predict every API result, event, counter and half presence the implementation reports
    ([StreamSM.oracle] = [StreamSpec.spec_oracle]). *)
From QV Require Import Lib.Tac Lib.Corr Model.FlowRecv Model.StreamSpec Model.StreamSM
  Proofs.FlowRecvProofs Proofs.StreamSMProofs Proofs.FinishedOnce.
Open Scope Z_scope.

(** * api_refines_spec (partial: receive half, results of stop and received_reset)
    With [abs_recv] mapping None / Free slots to an idle open half, an open [Recv] to its phase
    (stopped > reset > receiving with optional size) and map absence to absence, the
    implementation returns exactly the specification's result, for every state. *)
Theorem C11_api_refines_spec_recv_partial : forall s x id,
  abs_recv s id = alookup id (x_rh x) ->
  (forall code, snd (stop_op true id code s) = snd (spec_stop id x)) /\
  snd (rreset_op id s) = snd (spec_received_reset id x).
Proof.
  intros s x id H. split; [intro code; apply stop_refines; exact H|].
  apply received_reset_refines; exact H.
Qed.
Print Assumptions C11_api_refines_spec_recv_partial.

(** Full statement (not proved): every operation of the component returns the spec's result and
    commutes with the abstraction.  [abs] would map the whole state; the observable content of
    this statement is what the oracle checks on the implementation for every generated case. *)
Definition C11_api_refines_spec_full : Prop :=
  forall (abs : st -> spec) cfg i s op,
    reach_sm cfg i = Some s ->
    let '(s', out) := StreamSM.step s op in
    let '(x', want) := spec_step (abs s) op out in
    abs s' = x' /\ match want with Some r => prefix_eq r out = true | None => True end.

(** * finished_once_after_full_ack (partial: "only after", "never for a reset stream")
    An acknowledgement emits an event only if it is [Finished] for that stream, the stream was
    finished (DataSent, not ResetSent), FIN is acknowledged and no byte remains unacknowledged. *)
Theorem C11_finished_only_after_full_ack : forall id a b fin s,
  events (ack_frame id a b fin s) = events s \/
  exists sd, alookup id (sendm s) = Some (TSome sd) /\
    (s_state sd = 1 \/ s_state sd = 2) /\ (s_state sd = 2 \/ fin = true) /\
    fst (sbuf_ack sd a b) = 0 /\
    events (ack_frame id a b fin s) = events s ++ [[4; id]].
Proof. exact ack_finished. Qed.
Print Assumptions C11_finished_only_after_full_ack.

(** * finished_once (all op sequences)
    [g_fin s] is the ghost list of stream ids for which the model emitted [Finished] (it is
    extended exactly where [ack_frame] pushes the event — the only place a Finished is pushed),
    [g_reset s] the ids on which the application's reset() succeeded.  For every configuration and
    every op sequence (application calls, frames, transmissions, acks and losses in any order):
    Finished is emitted at most once per stream, never for a stream that was reset (neither before
    nor after the reset), and the send half of a Finished stream is gone for good. *)
Theorem C11_finished_once : forall sd mru mrb rw srw pmb pmu i s,
  (sd = 0 \/ sd = 1) -> 0 <= mrb ->
  reach_sm [0; sd; mru; mrb; rw; srw; pmb; pmu] i = Some s ->
  NoDup (g_fin s) /\
  (forall id, In id (g_reset s) -> ~ In id (g_fin s)) /\
  (forall id, In id (g_fin s) -> alookup id (sendm s) = None).
Proof.
  intros sd mru mrb rw srw pmb pmu i s Hs _ H.
  destruct (reach_Inv11 _ _ _ _ _ _ _ _ _ Hs H) as [_ _ J3 J4 J5 _].
  split; [exact J4|]. split; [intros id Hr; apply (J5 id Hr)|intros id Hf; apply (J3 id Hf)].
Qed.
Print Assumptions C11_finished_once.

(** * concurrency_accounting
    (1) For every configuration and op sequence the window of permitted remotely initiated
        streams is full: [allocated_remote_count[dir] = max_concurrent_remote_count[dir]] — every
        decrement is compensated at once by exactly one newly permitted stream.
    (2) One [stream_freed] call in such a state raises [max_remote] of the stream's direction by
        exactly one iff the stream is remotely initiated and its other half is already gone
        (unidirectional: its single half); in every other case [max_remote] is unchanged — so a
        stream stops counting exactly when both halves are terminal, not before.
    Together with [C11_finished_once] (a send half that is gone never comes back; the same key
    argument applies to [stream_freed]'s callers) this gives "never twice".  Not proved: that
    the decrement never underflows (needs the counting invariant [allocated_remote_count =
    number of remote streams with a live half]); kept as [C11_no_underflow_full]. *)
Theorem C11_concurrency_accounting : forall sd mru mrb rw srw pmb pmu i s,
  (sd = 0 \/ sd = 1) -> 0 <= mrb ->
  reach_sm [0; sd; mru; mrb; rw; srw; pmb; pmu] i = Some s ->
  forall d, pget d (alloc s) = pget d (max_conc s).
Proof.
  intros sd mru mrb rw srw pmb pmu i s Hs _ H d.
  rewrite (j_alloc _ (reach_Inv11 _ _ _ _ _ _ _ _ _ Hs H)). reflexivity.
Qed.
Print Assumptions C11_concurrency_accounting.

Theorem C11_stream_credit_exact : forall id (half : bool) s,
  (side s = 0 \/ side s = 1) -> (forall d, pget d (alloc s) = pget d (max_conc s)) ->
  let fully := negb (sid_init id =? side s) &&
               ((sid_dir id =? 1) || (if half then negb (amem id (recvm s)) else negb (amem id (sendm s)))) in
  max_remote (stream_freed id half s) =
    if fully then pset (sid_dir id) (pget (sid_dir id) (max_remote s) + 1) (max_remote s)
    else max_remote s.
Proof.
  intros id half s Hs HA fully. destruct (stream_freed_spec id half s Hs) as (_ & _ & C & _).
  cbv zeta in C. rewrite C, <- (HA (sid_dir id)). replace (Z.max 0 _) with 1 by lia. reflexivity.
Qed.
Print Assumptions C11_stream_credit_exact.

Definition C11_no_underflow_full : Prop :=
  forall sd mru mrb rw srw pmb pmu i s, (sd = 0 \/ sd = 1) -> 0 <= mrb -> 0 <= mru ->
    reach_sm [0; sd; mru; mrb; rw; srw; pmb; pmu] i = Some s ->
    (* every remotely initiated stream with a live half is counted *)
    forall d, (d = 0 \/ d = 1) ->
      Z.of_nat (length (filter (fun idx =>
         amem (mk_sid (1 - side s) d idx) (recvm s) || amem (mk_sid (1 - side s) d idx) (sendm s))
         (map Z.of_nat (seq 0 (Z.to_nat (pget d (max_remote s))))))) = pget d (alloc s).

(** * Refutation on the code before the repair (F2), witness replayed on the real code:
    unordered read; ordered read (IllegalOrderedRead); every later read reported ClosedStream
    while the spec still has the half open with unread data. *)
Definition f2_witness : ops :=
  [[0;0;4;4;1000;100;4;4]; [1;3;0;10;1]; [3;3;0;4]; [3;3;1;4]; [3;3;0;100]; [7;0;0;1]].
Theorem C11_api_refines_spec_refuted :
  exists i, spec_oracle i (FlowRecv.run_unfixed i) = false /\ spec_oracle i (StreamSM.run i) = true.
Proof. exists f2_witness. vm_compute. split; reflexivity. Qed.
Print Assumptions C11_api_refines_spec_refuted.

(** * Non-vacuity: a stream finished and fully acknowledged emits exactly one Finished; a reader
    sees end of stream once and a closed stream afterwards. *)
Example C11_example :
  let i := [[0;0;1;1;1000;100;1;1]; [8;1]; [10;2;5]; [11;2]; [15]; [16;0]; [18]; [16;0]; [18];
            [1;3;0;4;1]; [3;3;1;100]; [3;3;1;100]] in
  map (firstn 2) (StreamSM.run i) =
    [[0;0]; [0;2]; [0;5]; [0;0]; [0;1]; [0;2]; [4;2]; [3;0]; [0;0]; [0;0]; [0;4]; [1;0]] /\
  StreamSM.oracle i (StreamSM.run i) = true.
Proof. vm_compute. split; reflexivity. Qed.
