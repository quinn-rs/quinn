(** C03 — Peer-controlled input never crashes or hangs an endpoint (component level).
    Property theorems only: each is read off a lemma proved under Proofs/ (where that lemma is
    stated for a constant, the side condition on the generated value is evaluated here) and
    followed by [Print Assumptions].  Models: Model/CidQueue.v, CidState.v, PathResponses.v, AckRanges.v,
    PendingAcks.v, AckFrequency.v (tied to the code by the correspondence check on every run) and
    Model/RetireQueue.v, Model/FrameLegality.v (model only).  Constants come from gen/Constants.v: a changed
    [CidQueue::LEN], [MAX_ACK_BLOCKS] or [MAX_PATH_RESPONSES] breaks the side conditions here. *)
From QV Require Import Lib.Tac Lib.Corr gen.Constants
  Model.CidQueue Model.CidState Model.PathResponses Model.AckRanges Model.PendingAcks
  Model.AckFrequency Model.RetireQueue Model.FrameLegality
  Proofs.CidQueueProofs Proofs.CidStateProofs Proofs.PathResponsesProofs Proofs.PendingAcksProofs
  Proofs.AckRangesProofs Proofs.AckFrequencyProofs Proofs.RetireQueueProofs
  Proofs.FrameLegalityProofs.
Open Scope Z_scope.

(** * 0. The bounds the theorems are instantiated with, pinned to the values the property names:
    a changed constant in the code is a conscious decision that has to be repeated here. *)
Example C03_constants_pinned :
  CID_QUEUE_LEN = 5 /\ MAX_PATH_RESPONSES = 16 /\ MAX_ACK_BLOCKS = 64 /\
  PathResponses.PINNED_MAX_PATH_RESPONSES = MAX_PATH_RESPONSES /\
  PendingAcks.PINNED_MAX_ACK_BLOCKS = MAX_ACK_BLOCKS.
Proof. vm_compute. repeat split; reflexivity. Qed.

(** * 1. CidQueue: remote connection IDs driven by NEW_CONNECTION_ID frames.
    For every initial CID, every handshake-time sequence of [update_initial_cid] followed by every
    sequence of [insert(sequence, retire_prior_to <= sequence)] / [next]: no [expect]/[unwrap]/
    debug assertion fires ([run_ops] is [Some]), [buffer[cursor]] is occupied ([active] is [Some]),
    the cursor is in range, every returned retired range is non-empty with at most [LEN] elements,
    the active sequence number is 0 or the sequence number of an inserted frame, and it is not
    below the [retire_prior_to] of any frame the queue accepted. *)
Theorem C03_cidqueue_never_panics : forall id0 pre post,
  Forall CidQueueProofs.upd_op pre -> Forall CidQueueProofs.main_op post ->
  exists s outs acc,
    CidQueue.run_ops CID_QUEUE_LEN (CidQueue.new CID_QUEUE_LEN id0) (pre ++ post) = Some (s, outs) /\
    Forall2 CidQueueProofs.out_ok (pre ++ post) outs /\
    length (CidQueue.buf s) = Z.to_nat CID_QUEUE_LEN /\ 0 <= CidQueue.cursor s < CID_QUEUE_LEN /\
    (exists a, CidQueue.active s = Some a) /\
    CidQueueProofs.gexec (CidQueue.new CID_QUEUE_LEN id0) [] (pre ++ post) = Some (s, acc) /\
    (CidQueue.active_seq s = 0 \/
     exists rpt id, In (CidQueue.Insert (CidQueue.active_seq s) rpt id) post) /\
    (forall seq rpt id, In (seq, rpt, id) acc -> rpt <= CidQueue.active_seq s).
Proof. exact (cidqueue_never_panics_lemma CID_QUEUE_LEN eq_refl). Qed.
Print Assumptions C03_cidqueue_never_panics.

(** non-vacuity: a run that wraps the ring, retires through retire_prior_to and ends at 1000000 *)
Example C03_cidqueue_example :
  CidQueue.run [[1; 2; 0; 7]; [1; 3; 1; 8]; [2]; [1; 1000000; 1000000; 9]; [1; 0; 0; 5]]
  = [[0; 0; 0]; [2; 7; 1; 0; 2; 7]; [3; 8; 1; 8; 2; 3]; [1000000; 9; 1; 3; 8; 9]; [1000000; 9; 2]].
Proof. vm_compute. reflexivity. Qed.

(** * 2. CidState: local connection IDs driven by RETIRE_CONNECTION_ID frames and timeouts. *)
Theorem C03_cidstate_safe : forall os,
  Forall CidStateProofs.wf_op os ->
  exists s outs, CidStateProofs.exec CidState.init os = Some s /\
    CidState.run_ops CidState.init os = Some outs /\ length outs = length os /\
    (forall x, In x (CidState.active s) -> 0 <= x < CidState.issued s) /\
    Z.of_nat (length (CidState.active s)) <= CidState.issued s /\
    0 <= CidState.prev s <= CidState.issued s /\ 0 <= CidState.rseq s <= CidState.issued s.
Proof. exact cidstate_safe_lemma. Qed.
Print Assumptions C03_cidstate_safe.

Theorem C03_cidstate_retire_unissued_rejected : forall s seq limit,
  CidState.issued s < seq ->
  CidState.on_cid_retirement s seq limit = (s, inr CidState.PROTOCOL_VIOLATION).
Proof. exact retire_unissued_rejected. Qed.
Print Assumptions C03_cidstate_retire_unissued_rejected.

(** F11 verdict: [sequence == issued] passes the guard ([>] instead of [>=]) but is a no-op on
    every reachable state (harmless; RFC 9000 19.16 would have it rejected). *)
Theorem C03_cidstate_retire_at_issued_is_noop : forall s limit,
  CidStateProofs.Inv s -> CidState.cid_len s <> 0 ->
  exists b, CidState.on_cid_retirement s (CidState.issued s) limit = (s, inl b)
            /\ b = (Z.of_nat (length (CidState.active s)) <? limit).
Proof. exact retire_at_issued_is_noop. Qed.
Print Assumptions C03_cidstate_retire_at_issued_is_noop.

Theorem C03_cidstate_retire_accepted : forall s seq limit s' b,
  CidStateProofs.Inv s -> CidState.on_cid_retirement s seq limit = (s', inl b) ->
  seq <= CidState.issued s /\ ~ In seq (CidState.active s') /\
  (forall x, In x (CidState.active s') -> In x (CidState.active s)) /\
  CidState.issued s' = CidState.issued s /\
  (b = true <-> Z.of_nat (length (CidState.active s')) < limit).
Proof. exact retire_accepted. Qed.
Print Assumptions C03_cidstate_retire_accepted.

Example C03_cidstate_example :
  CidState.run [[0; 8; 1000; 0; 2]; [1; 3; 5]; [2; 5; 8]; [2; 6; 8]; [2; 1; 8]; [3]]
  = [[0; 0; 2; 0; 0; 1; 1000; 2; 0; 1]; [0; 0; 5; 0; 0; 2; 1000; 5; 0; 1; 2; 3; 4];
     [0; 1; 5; 0; 0; 2; 1000; 5; 0; 1; 2; 3; 4]; [1; 10; 5; 0; 0; 2; 1000; 5; 0; 1; 2; 3; 4];
     [0; 1; 5; 0; 0; 2; 1000; 4; 0; 2; 3; 4]; [0; 1; 5; 0; 2; 1; 1005; 4; 0; 2; 3; 4]].
Proof. vm_compute. reflexivity. Qed.

(** * 3. PathResponses: PATH_RESPONSE frames owed to peer-chosen remotes. *)
Theorem C03_path_responses_bounded : forall os,
  let l := PathResponsesProofs.exec MAX_PATH_RESPONSES [] os in
  Z.of_nat (length l) <= MAX_PATH_RESPONSES /\ NoDup (PathResponsesProofs.remotes l) /\
  Forall (fun out => 0 <= hd (-1) out <= MAX_PATH_RESPONSES)
         (PathResponses.run_ops MAX_PATH_RESPONSES [] os).
Proof. apply path_responses_bounded_lemma. vm_compute. discriminate. Qed.
Print Assumptions C03_path_responses_bounded.

Theorem C03_path_responses_keeps_newest : forall M l p tk r,
  NoDup (PathResponsesProofs.remotes l) ->
  forall e, In e (PathResponses.push M l p tk r) -> PathResponses.remote e = r ->
            p <= PathResponses.packet e.
Proof. exact push_keeps_newest. Qed.
Print Assumptions C03_path_responses_keeps_newest.

Example C03_path_responses_example :
  PathResponses.run ([[0; 1; 11; 5]; [0; 2; 12; 6]; [0; 0; 13; 5]; [1; 5]; [2; 6]; [3]])
  = [[1]; [2]; [2]; [1; 1; 12; 6]; [1; 0]; [1; 0]].
Proof. vm_compute. reflexivity. Qed.

(** * 4. PendingAcks: packet numbers awaiting acknowledgement, any arrival order. *)
Theorem C03_pending_acks_bounded_partial : forall os,
  Forall PendingAcksProofs.wf_op os ->
  exists s outs, PendingAcksProofs.exec MAX_ACK_BLOCKS PendingAcks.init os = Some s /\
                 PendingAcks.run_ops MAX_ACK_BLOCKS PendingAcks.init os = Some outs /\
                 Z.of_nat (length (PendingAcks.ranges s)) <= MAX_ACK_BLOCKS /\
                 length outs = length os.
Proof.
  intros os H.
  destruct (run_winv MAX_ACK_BLOCKS os ltac:(vm_compute; discriminate) H) as (s & outs & He & Hr & [Hl _] & Hn).
  exists s, outs. auto.
Qed.
Print Assumptions C03_pending_acks_bounded_partial.

Theorem C03_pending_acks_insert_keeps_packet : forall M s p now s',
  PendingAcks.insert_one M s p now = Some s' ->
  AckRanges.mem (PendingAcks.ranges s') p = true \/
  (M < Z.of_nat (length (AckRanges.insert (PendingAcks.ranges s) p (p + 1))) /\
   PendingAcks.ranges s' = tl (AckRanges.insert (PendingAcks.ranges s) p (p + 1))).
Proof. exact insert_one_keeps_packet. Qed.
Print Assumptions C03_pending_acks_insert_keeps_packet.

(** Full statement (NOT proved; checked on every run by the correspondence oracle, which is this
    specification evaluated on the implementation's outputs): the ranges are exactly the maximal
    runs of the element-list specification, in which only the lowest run is ever dropped. *)
Definition C03_pending_acks_full : Prop := forall (i : ops) os,
  PendingAcks.decode_ops i = Some os -> Forall PendingAcksProofs.wf_op os ->
  exists s, PendingAcksProofs.exec MAX_ACK_BLOCKS PendingAcks.init os = Some s /\
            PendingAcks.ranges s
            = PendingAcks.runs (fold_left (fun e op => PendingAcks.spec_step op e) i []).

(** * 5. AckFrequencyState. *)
(** F4: the code before the repair panics for a parameter set that validation admits. *)
Theorem C03_ack_frequency_never_panics_refuted :
  exists max_ms min_us rtt,
    AckFrequencyProofs.validated max_ms min_us /\ 0 <= rtt /\
    AckFrequency.candidate_pre_fix (AckFrequency.new (max_ms * 1000)) rtt None (Some min_us) = None /\
    AckFrequency.run_pre_fix [[0; max_ms * 1000]; [2]; [1; rtt; -1; min_us]] = [PANIC].
Proof. exact candidate_pre_fix_refuted. Qed.
Print Assumptions C03_ack_frequency_never_panics_refuted.

Theorem C03_ack_frequency_pre_fix_panics_iff : forall s rtt cfg minad,
  AckFrequency.candidate_pre_fix s rtt cfg minad = None <->
  Z.max rtt AckFrequency.MIN_AUTOMATIC_ACK_DELAY < AckFrequency.opt_default minad 0.
Proof. exact candidate_pre_fix_panics_iff. Qed.
Print Assumptions C03_ack_frequency_pre_fix_panics_iff.

(** After the repair: total for ALL (rtt, min_ack_delay, peer max_ack_delay, config) — no
    hypothesis on the parameters is needed — with the documented bounds, and unchanged outside
    the defect class. *)
Theorem C03_candidate_max_ack_delay_total : forall s rtt cfg minad,
  exists d, AckFrequency.candidate s rtt cfg minad = Some d /\
    AckFrequency.opt_default minad 0 <= d /\
    d <= Z.max (Z.max rtt AckFrequency.MIN_AUTOMATIC_ACK_DELAY) (AckFrequency.opt_default minad 0) /\
    (AckFrequency.opt_default minad 0
       <= AckFrequency.opt_default cfg (AckFrequency.peer_max_ack_delay s)
       <= Z.max rtt AckFrequency.MIN_AUTOMATIC_ACK_DELAY ->
     d = AckFrequency.opt_default cfg (AckFrequency.peer_max_ack_delay s)).
Proof. exact candidate_total. Qed.
Print Assumptions C03_candidate_max_ack_delay_total.

Theorem C03_candidate_agrees_pre_fix : forall s rtt cfg minad d,
  AckFrequency.candidate_pre_fix s rtt cfg minad = Some d ->
  AckFrequency.candidate s rtt cfg minad = Some d.
Proof. exact candidate_agrees_pre_fix. Qed.
Print Assumptions C03_candidate_agrees_pre_fix.

Theorem C03_ack_frequency_never_panics : forall d os,
  Z.of_nat (length os) <= VARINT_MAX + 1 ->
  exists outs, AckFrequency.run_ops AckFrequency.candidate (AckFrequency.new d) os = Some outs /\
               length outs = length os.
Proof. exact ack_frequency_never_panics_lemma. Qed.
Print Assumptions C03_ack_frequency_never_panics.

Example C03_ack_frequency_example :
  AckFrequency.run [[0; 30000]; [2]; [1; 10000; -1; 26000]; [1; 40000; -1; 1000]]
  = [[0; 30000; 30000; 30000]; [0; 0; 30000; 30000; 30000];
     [0; 26000; 30000; 30000; 30000]; [0; 30000; 30000; 30000; 30000]].
Proof. vm_compute. reflexivity. Qed.

(** * 6. The NEW_CONNECTION_ID arm and the queue of pending RETIRE_CONNECTION_ID frames.
    [RetireQueue.run false] is the arm as found, [RetireQueue.run true] the arm after the repair
    (the [Err(InsertError::Retired)] path applies MAX_PENDING_RETIRED_CIDS too). *)
(** Refuted as "bounded" for the code as found: frames for an already retired sequence number are
    queued without any check, one entry per frame. *)
Theorem C03_retire_queue_bounded_refuted : forall n : nat,
  exists os s',
    RetireQueue.run false CID_QUEUE_LEN true false (RetireQueue.init CID_QUEUE_LEN 0) os
      = RetireQueue.Continue s'
    /\ Z.of_nat n < RetireQueue.pending s'.
Proof. exact retire_queue_unbounded. Qed.
Print Assumptions C03_retire_queue_bounded_refuted.

(** Both variants: never a panic, only PROTOCOL_VIOLATION / CONNECTION_ID_LIMIT_ERROR close the
    connection, and at most [10 * LEN + 4] entries are queued besides those pushed on the Retired
    path. *)
Theorem C03_retire_queue_bound_except_retired_path : forall fx cu sv id os,
  Forall RetireQueueProofs.wf_op os ->
  match RetireQueue.run fx CID_QUEUE_LEN cu sv (RetireQueue.init CID_QUEUE_LEN id) os with
  | RetireQueue.Continue s =>
      0 <= RetireQueue.pending s
        <= RetireQueue.max_pending CID_QUEUE_LEN + 4 + RetireQueue.retired_hits s
  | RetireQueue.Close c =>
      c = RetireQueue.PROTOCOL_VIOLATION \/ c = RetireQueue.CONNECTION_ID_LIMIT_ERROR
  | RetireQueue.Panic => False
  end.
Proof. exact (retire_queue_bound_lemma CID_QUEUE_LEN eq_refl). Qed.
Print Assumptions C03_retire_queue_bound_except_retired_path.

(** After the repair, at full strength: for every frame sequence, zero-length or not, client or
    server, the queue never holds more than [10 * LEN + 4] entries. *)
Theorem C03_retire_queue_bounded : forall cu sv id os,
  Forall RetireQueueProofs.wf_op os ->
  match RetireQueue.run true CID_QUEUE_LEN cu sv (RetireQueue.init CID_QUEUE_LEN id) os with
  | RetireQueue.Continue s =>
      0 <= RetireQueue.pending s <= RetireQueue.max_pending CID_QUEUE_LEN + 4
  | RetireQueue.Close c =>
      c = RetireQueue.PROTOCOL_VIOLATION \/ c = RetireQueue.CONNECTION_ID_LIMIT_ERROR
  | RetireQueue.Panic => False
  end.
Proof. exact (retire_queue_bounded_lemma CID_QUEUE_LEN eq_refl). Qed.
Print Assumptions C03_retire_queue_bounded.

Example C03_retire_queue_example :
  match RetireQueue.run true 5 true false (RetireQueue.init 5 0)
          [RetireQueue.Frame 1 1 1; RetireQueue.Frame 0 0 2; RetireQueue.Frame 7 3 3] with
  | RetireQueue.Continue s => RetireQueue.pending s = 7
  | _ => False
  end.
Proof. vm_compute. reflexivity. Qed.

(** * 4, continued. PendingAcks at set level: canonical ranges and exact per-operation semantics. *)
Theorem C03_pending_acks_canonical : forall os,
  Forall PendingAcksProofs.wf_op os ->
  exists s outs, PendingAcksProofs.exec MAX_ACK_BLOCKS PendingAcks.init os = Some s /\
                 PendingAcks.run_ops MAX_ACK_BLOCKS PendingAcks.init os = Some outs /\
                 AckRangesProofs.WInv MAX_ACK_BLOCKS s.
Proof.
  intros os H.
  destruct (run_winv MAX_ACK_BLOCKS os ltac:(vm_compute; discriminate) H) as (s & outs & He & Hr & HI & _).
  exists s, outs. auto.
Qed.
Print Assumptions C03_pending_acks_canonical.

(** [insert_one p] on a reachable state: the set becomes S + {p}; only if that needs more than
    [M] ranges is anything dropped, and then exactly the LOWEST run, every element of which is
    below every element kept. *)
Theorem C03_pending_acks_insert_one_spec : forall M s p now s',
  0 <= M -> AckRangesProofs.WInv M s -> 0 <= p -> PendingAcks.insert_one M s p now = Some s' ->
  AckRangesProofs.WInv M s' /\
  let l1 := AckRanges.insert (PendingAcks.ranges s) p (p + 1) in
  AckRangesProofs.wf_from (-1) l1 /\
  (forall x, AckRanges.mem l1 x = AckRanges.mem (PendingAcks.ranges s) x || (x =? p)) /\
  (Z.of_nat (length l1) <= M -> PendingAcks.ranges s' = l1) /\
  (M < Z.of_nat (length l1) ->
     exists a b r, l1 = (a, b) :: r /\ PendingAcks.ranges s' = r /\
       (forall x, AckRanges.mem r x = AckRanges.mem l1 x && (b <=? x)) /\
       (forall x y, AckRangesProofs.in_rng a b x = true -> AckRanges.mem r y = true -> x < y)).
Proof. intros M s p now s' _. apply insert_one_spec. Qed.
Print Assumptions C03_pending_acks_insert_one_spec.

Theorem C03_pending_acks_subtract_below_spec : forall M s m s',
  AckRangesProofs.WInv M s -> 0 <= m -> PendingAcks.subtract_below s m = Some s' ->
  AckRangesProofs.WInv M s' /\
  (forall x, AckRanges.mem (PendingAcks.ranges s') x
             = AckRanges.mem (PendingAcks.ranges s) x && (m <? x)).
Proof. intros M s m s' HI _. apply subtract_below_spec, HI. Qed.
Print Assumptions C03_pending_acks_subtract_below_spec.

Example C03_pending_acks_example :
  PendingAcks.run [[0; 5; 1]; [0; 7; 2]; [0; 6; 3]; [1; 5]; [3]]
  = [[1; 5; 6]; [2; 5; 8]; [1; 5; 8]; [1; 6; 8]; [1; 6; 8]].
Proof. vm_compute. reflexivity. Qed.

(** * 7. Frame legality: frame kind x packet space x receiving side.
    A placement the RFCs forbid is answered with PROTOCOL_VIOLATION, except the listed lenient
    placements (ACK / PATH_RESPONSE in 0-RTT, APPLICATION_CLOSE in Initial/Handshake), which reach
    the ordinary handler or drain the connection; a permitted placement is dispatched, except
    APPLICATION_CLOSE in 0-RTT (PROTOCOL_VIOLATION).  Checked over all 24 x 4 x 2 combinations. *)
Theorem C03_violation_class_table : forall f sp sd,
  match FrameLegality.legal f sp sd with
  | FrameLegality.Unreachable => sp = FrameLegality.ZeroRtt /\ sd = FrameLegality.Client
  | o =>
      (FrameLegality.rfc_permits f sp sd = false ->
         o = FrameLegality.Err FrameLegality.PROTOCOL_VIOLATION \/
         (FrameLegality.lenient f sp sd = true /\
          (o = FrameLegality.Dispatch \/ o = FrameLegality.Drain))) /\
      (FrameLegality.rfc_permits f sp sd = true ->
         (o = FrameLegality.Dispatch \/ o = FrameLegality.Drain) \/
         (FrameLegality.stricter f sp sd = true /\
          o = FrameLegality.Err FrameLegality.PROTOCOL_VIOLATION))
  end.
Proof. exact violation_class_table_lemma. Qed.
Print Assumptions C03_violation_class_table.

Theorem C03_violation_class_table_rows : forall f sp sd, FrameLegality.row_ok f sp sd = true.
Proof. exact row_ok_all. Qed.
Print Assumptions C03_violation_class_table_rows.

Example C03_frame_legality_example :
  FrameLegality.legal FrameLegality.Stream FrameLegality.Initial FrameLegality.Server
    = FrameLegality.Err 10 /\
  FrameLegality.legal FrameLegality.HandshakeDone FrameLegality.OneRtt FrameLegality.Server
    = FrameLegality.Err 10 /\
  FrameLegality.legal FrameLegality.HandshakeDone FrameLegality.OneRtt FrameLegality.Client
    = FrameLegality.Dispatch /\
  length FrameLegality.table = 192%nat.
Proof. vm_compute. repeat split; reflexivity. Qed.
