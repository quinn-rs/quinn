(** C07 — Unvalidated addresses are never sent more than 3x what they sent (component level).
    Property theorems, closed by [exact] of a lemma under Proofs/ or a short script, each with
    [Print Assumptions]. Models: Model/AntiAmp.v (exact), Model/StatelessReset.v (relational in the
    random padding length), tied to the code by the correspondence check on every run. *)
From QV Require Import Lib.Tac Lib.Chk Lib.Corr Proofs.ChkProofs gen.Constants.
From QV Require Model.AntiAmp Model.StatelessReset.
From QV Require Proofs.AntiAmpProofs Proofs.StatelessResetProofs.
Open Scope Z_scope.

(** amplification_bound. A history is a list of events on one path: [1; n] = a datagram of n
    bytes received from the address, [6; seg; max; d0; d1; ...] = one poll_transmit batch wanting
    to send datagrams of those sizes (first at most seg <= mtu, later ones at most the first),
    [4; b] / [5] = queries, [7; 1] = the address becomes validated, [0; v] = a new path.
    [gs]/[gr] are the bytes REALLY sent/received (unbounded), independent of the u64 counters.
    Proved for an arbitrary datagram bound [mtu] > 0 and instantiated with the crate's
    MAX_UDP_PAYLOAD; the factor is [AntiAmp.FACTOR] = 3 (pinned to the code by the budget probe of
    the correspondence on every run). *)
Theorem C07_amplification_bound : forall l s,
  Forall (AntiAmpProofs.op_wf MAX_UDP_PAYLOAD) l ->
  AntiAmp.steps (AntiAmp.fresh false) l = Some s ->
  AntiAmp.validated s = false ->
  AntiAmp.gs s < 3 * AntiAmp.gr s + MAX_UDP_PAYLOAD.
Proof.
  intros l s Hwf H Hv.
  exact (AntiAmpProofs.amplification_bound MAX_UDP_PAYLOAD l s ltac:(vm_compute; reflexivity) Hwf H Hv).
Qed.
Print Assumptions C07_amplification_bound.

Theorem C07_amplification_bound_any_mtu : forall mtu l s,
  0 < mtu -> Forall (AntiAmpProofs.op_wf mtu) l ->
  AntiAmp.steps (AntiAmp.fresh false) l = Some s ->
  AntiAmp.validated s = false ->
  AntiAmp.gs s < AntiAmp.FACTOR * AntiAmp.gr s + mtu.
Proof. exact AntiAmpProofs.amplification_bound. Qed.
Print Assumptions C07_amplification_bound_any_mtu.

Theorem C07_no_datagram_when_exhausted : forall mtu l s seg max ds s' n t,
  0 < mtu -> Forall (AntiAmpProofs.op_wf mtu) l ->
  AntiAmp.steps (AntiAmp.fresh false) l = Some s ->
  AntiAmp.validated s = false -> AntiAmp.FACTOR * AntiAmp.gr s <= AntiAmp.gs s ->
  AntiAmp.poll s seg max ds = Some (s', n, t) -> n = 0 /\ t = 0 /\ AntiAmp.gs s' = AntiAmp.gs s.
Proof. exact AntiAmpProofs.no_datagram_when_exhausted. Qed.
Print Assumptions C07_no_datagram_when_exhausted.

Theorem C07_counters_saturate_safely : forall mtu l s,
  0 < mtu -> Forall (AntiAmpProofs.op_wf mtu) l ->
  AntiAmp.steps (AntiAmp.fresh false) l = Some s ->
  0 <= AntiAmp.recvd s <= AntiAmp.gr s /\
  (AntiAmp.sent s = AntiAmp.gs s \/ (AntiAmp.sent s = U64MAX /\ U64MAX <= AntiAmp.gs s)) /\
  (AntiAmp.validated s = false -> AntiAmp.sent s = U64MAX ->
   forall b, 1 <= b -> AntiAmp.blocked s b = None).
Proof. exact AntiAmpProofs.counters_saturate_safely. Qed.
Print Assumptions C07_counters_saturate_safely.

(** reset_smaller_and_rate_limited. A history is a list of (arrival time, datagram length, padding
    choice) of datagrams that reach [stateless_reset]; [emitted] = the resets sent, as
    (time, inciting length, reset size), and is [None] only if a choice is not a size the code can
    produce. Every emitted reset is strictly smaller than its datagram, which is longer than
    MIN_PADDING_LEN + RESET_TOKEN_SIZE = 21 bytes, and any two are at least the interval apart. *)
Theorem C07_reset_smaller_and_rate_limited : forall srv iv evs out,
  0 <= iv ->
  StatelessReset.emitted (StatelessReset.mk srv iv None) evs = Some out ->
  Forall (fun e => snd e < snd (fst e) /\ 21 < snd (fst e)) out /\
  StatelessResetProofs.spaced iv out.
Proof. exact StatelessResetProofs.reset_smaller_and_rate_limited. Qed.
Print Assumptions C07_reset_smaller_and_rate_limited.

Theorem C07_short_initial_ignored : forall s now len hint,
  StatelessReset.has_server s = true -> len < 1200 ->
  StatelessReset.handle s 2 now len hint = Some (s, StatelessReset.none_out 0).
Proof. exact StatelessResetProofs.short_initial_ignored. Qed.
Print Assumptions C07_short_initial_ignored.

(** Non-vacuity. 1200 bytes received: a 10-datagram batch of 1200-byte segments is cut after the
    third datagram (3600 = 3 x 1200 sent), and the next batch starts nothing. *)
Example C07_antiamp_example :
  match AntiAmp.steps (AntiAmp.fresh false) [[1; 1200]; [6; 1200; 10; 1200; 1200; 1200; 1200; 1200]] with
  | Some s => (AntiAmp.gs s, AntiAmp.gr s, AntiAmp.poll s 1200 10 [1200]) = (3600, 1200, Some (s, 0, 0))
  | None => False
  end.
Proof. vm_compute. reflexivity. Qed.
Example C07_reset_example :
  StatelessReset.emitted (StatelessReset.mk false 20000 None)
    [(0, 22, 21); (10, 100, 50); (20000, 100, 73); (20001, 21, 0); (50000, 43, 41)]
  = Some [(0, 22, 21); (20000, 100, 73); (50000, 43, 41)].
Proof. vm_compute. reflexivity. Qed.
