(** C19 — The UDP layer preserves boundaries, payload and metadata.
    Property theorems only: most are closed by [exact] of a lemma proved in Proofs/UdpProofs.v or
    Proofs/CmsgProofs.v, the sweeps over the finite option spaces and the Examples by [vm_compute].
    Models: Model/UdpModel.v (segmentation, GRO, receive split),
    Model/Cmsg.v (control buffer layout, prepare_msg option space, receive decode), tied to
    quinn-udp / quinn on every run by checks/C19.py (udp_cmsg, udp_loop on real loopback sockets,
    source-shape check of the split loop). Layout numbers come from the compiled crate
    (gen/Constants.v): a changed buffer size, payload type or a new option breaks this file. *)
From QV Require Import Lib.Tac Lib.Bytes Lib.Corr gen.Constants Model.UdpModel Model.Cmsg
  Proofs.UdpProofs Proofs.CmsgProofs.

(** ** Boundaries *)

(** For every payload and every segment size: segmentation yields non-empty chunks of exactly
    [seg] bytes except a shorter last one, whose concatenation is the payload; and however the
    receiving kernel coalesces them ([choice] is arbitrary), splitting each received message by
    its reported stride — the loop of [RecvState::poll_socket] — returns exactly those chunks. *)
Theorem C19_split_coalesce_segments : forall (seg : nat) (contents : list Z),
  (0 < seg)%nat ->
  exists segs,
    segments seg contents = Some segs /\
    concat segs = contents /\
    run_shape seg segs /\
    Forall (fun d => (0 < length d <= seg)%nat) segs /\
    forall choice, split_all (gro_coalesce choice segs) = Some segs.
Proof. exact split_coalesce_segments. Qed.
Print Assumptions C19_split_coalesce_segments.

(** The same for any sequence of non-empty datagrams from one source (not only a GSO batch). *)
Theorem C19_gro_split_roundtrip : forall choice (dgs : list (list Z)),
  Forall (fun d => d <> []) dgs -> split_all (gro_coalesce choice dgs) = Some dgs.
Proof. exact gro_split_roundtrip. Qed.
Print Assumptions C19_gro_split_roundtrip.

(** The receive loop terminates and loses nothing for every positive stride ... *)
Theorem C19_split_terminates : forall (stride : nat) (data : list Z),
  (0 < stride)%nat -> exists l, split_by_stride stride data = Some l /\ concat l = data.
Proof. exact split_terminates. Qed.
Print Assumptions C19_split_terminates.

(** ... and only then: a zero stride on a non-empty message makes no progress. Kernel assumption
    (UDP_GRO never reports 0; without the cmsg the stride is the message length). *)
Theorem C19_split_stride_zero_hangs : forall data : list Z,
  data <> [] -> split_by_stride 0 data = None.
Proof. exact split_stride_zero_hangs. Qed.
Print Assumptions C19_split_stride_zero_hangs.

(** [effective_segment_size] is [None] exactly when the transmit is a single datagram, and the
    shortcut never changes which datagrams are sent. *)
Theorem C19_effective_none_iff_single : forall (seg : nat) (contents : list Z) segs,
  (0 < seg)%nat -> contents <> [] -> segments seg contents = Some segs ->
  (effective_segment_size (Some seg) (length contents) = None <-> length segs = 1%nat).
Proof. exact effective_none_iff_single. Qed.
Print Assumptions C19_effective_none_iff_single.

Theorem C19_transmit_datagrams_eq_segments : forall (seg : nat) (contents : list Z),
  (0 < seg)%nat -> contents <> [] ->
  transmit_datagrams (Some seg) contents = segments seg contents.
Proof. exact transmit_datagrams_eq_segments. Qed.
Print Assumptions C19_transmit_datagrams_eq_segments.

(** ** Control messages stay within their buffer *)
Open Scope Z_scope.

(** The layout formulas of the model agree with what libc computes in the compiled crate, the
    buffer type has the announced size and alignment, and the byte order is the modelled one. *)
Theorem C19_layout_consistent :
  cmsg_space gen_layout 0 = UDP_CMSG_SPACE_0 /\ cmsg_len gen_layout 0 = UDP_CMSG_LEN_0 /\
  cmsg_space gen_layout UDP_SZ_U8 = UDP_SPACE_U8 /\
  cmsg_space gen_layout UDP_SZ_U16 = UDP_SPACE_U16 /\
  cmsg_space gen_layout UDP_SZ_C_INT = UDP_SPACE_C_INT /\
  cmsg_space gen_layout UDP_SZ_IN_PKTINFO = UDP_SPACE_IN_PKTINFO /\
  cmsg_space gen_layout UDP_SZ_IN6_PKTINFO = UDP_SPACE_IN6_PKTINFO /\
  cmsg_space gen_layout UDP_SZ_TIMESPEC = UDP_SPACE_TIMESPEC /\
  UDP_CMSG_BUF_SIZE = UDP_CMSG_LEN /\ UDP_CMSGHDR_ALIGN <= UDP_CMSG_BUF_ALIGN /\
  0 < UDP_CMSG_ALIGN /\ 0 <= UDP_CMSGHDR_SIZE /\ UDP_LITTLE_ENDIAN = 1.
Proof. vm_compute. repeat split; congruence. Qed.
Print Assumptions C19_layout_consistent.

(** Send side. For EVERY combination of {dst v4 | v6 | v4-mapped} x {no ECN, ECT(1), ECT(0), CE}
    x {segment size or not} x {src none | v4 | v6} x sendmsg_einval x encode_src_ip
    (3*4*2*3*2*2 = 288 combinations, a finite domain enumerated in [all_sendopts] and proved
    complete), the control messages [prepare_msg] pushes fit the buffer: [Encoder::push] never
    hits its assertion. *)
Theorem C19_cmsg_fits : forall o : sendopt,
  total_space gen_layout (send_sizes gen_layout o) <= UDP_CMSG_LEN.
Proof. exact (send_fits_sound gen_layout ltac:(vm_compute; reflexivity)). Qed.
Print Assumptions C19_cmsg_fits.

(** The concrete model of [prepare_msg] — the function the correspondence runs against the real
    one, with ECN value, segment size and source address — pushes exactly the sizes of its option
    combination, so it never exceeds the buffer either (its [Encoder::push] panic is unreachable). *)
Theorem C19_prepare_msg_fits : forall dst ecn seg src einval,
  src_ok src ->
  cmsgs_space gen_layout (prepare_cmsgs gen_layout dst ecn seg src einval) <= UDP_CMSG_LEN.
Proof. exact (fun dst ecn seg src einval => prepare_cmsgs_fits dst ecn seg src einval ltac:(vm_compute; reflexivity)). Qed.
Print Assumptions C19_prepare_msg_fits.

(** ... and so does every prefix of the pushes (the assertion is checked after each one). *)
Theorem C19_cmsg_prefix_fits : forall (o : sendopt) (k : nat),
  total_space gen_layout (firstn k (send_sizes gen_layout o)) <= UDP_CMSG_LEN.
Proof.
  intros o k. apply (prefix_fits gen_layout); [vm_compute; reflexivity|vm_compute; congruence| |exact (C19_cmsg_fits o)].
  apply send_sizes_nonneg; vm_compute; congruence.
Qed.
Print Assumptions C19_cmsg_prefix_fits.

(** Receive side. Everything the kernel attaches to one message of a socket configured by
    [UdpSocketState::new] — for every combination of socket family, packet family, coalescing and
    timestamping (16 combinations) — fits the receive control buffer, so nothing is truncated
    and in particular the TOS/TCLASS message carrying the ECN codepoint, which comes last, is
    delivered. (False for the 96-byte buffer the repository had: see the example below.) *)
Theorem C19_recv_cmsg_fits : forall r : recvopt,
  total_space gen_layout (recv_sizes gen_layout r) <= UDP_CMSG_LEN.
Proof. exact (recv_fits_sound gen_layout ltac:(vm_compute; reflexivity)). Qed.
Print Assumptions C19_recv_cmsg_fits.

(** Decode after encode: what the kernel attaches (timestamp, GRO stride, destination address and
    interface, ECN bits; any subset of the optional ones) is what [decode_recv] reports. *)
Theorem C19_cmsg_roundtrip : forall len ts gro dst ifx pkt4 tos,
  match ts with Some (s, n) => 0 <= s < 2 ^ 63 /\ 0 <= n < 10 ^ 9 | None => True end ->
  match gro with Some g => 0 <= g < 2 ^ 31 | None => True end ->
  addr_ok dst -> 0 <= ifx < 2 ^ 32 -> 0 <= tos < 256 ->
  decode_all gen_layout (init_meta len) (kernel_cmsgs gen_layout ts gro dst ifx pkt4 tos)
  = Some (expected_meta len ts gro dst ifx tos).
Proof. exact cmsg_roundtrip. Qed.
Print Assumptions C19_cmsg_roundtrip.

(** ** Non-vacuity and the finding *)
Example C19_example_boundaries :
  segments 3 [1; 2; 3; 4; 5; 6; 7; 8] = Some [[1; 2; 3]; [4; 5; 6]; [7; 8]] /\
  gro_coalesce [5%nat] [[1; 2; 3]; [4; 5; 6]; [7; 8]] = [(3%nat, [1; 2; 3; 4; 5; 6; 7; 8])] /\
  gro_coalesce [1%nat; 0%nat] [[1; 2; 3]; [4; 5; 6]; [7; 8]] = [(3%nat, [1; 2; 3; 4; 5; 6]); (2%nat, [7; 8])] /\
  split_by_stride 3 [1; 2; 3; 4; 5; 6; 7; 8] = Some [[1; 2; 3]; [4; 5; 6]; [7; 8]] /\
  effective_segment_size (Some 3%nat) 8 = Some 3%nat /\ effective_segment_size (Some 8%nat) 8 = None.
Proof. vm_compute. repeat split; reflexivity. Qed.

Example C19_example_cmsg :
  send_sizes gen_layout {| o_dst := DV6; o_ecn := Ce; o_seg := true; o_src := SV6; o_einval := false; o_encsrc := true |}
  = [UDP_SZ_C_INT; UDP_SZ_U16; UDP_SZ_IN6_PKTINFO] /\
  length all_sendopts = 288%nat /\ length all_recvopts = 16%nat.
Proof. vm_compute. repeat split; reflexivity. Qed.

(** With the 96-byte buffer (64-bit Linux layout) a coalesced, timestamped IPv4 message needs
    112 bytes and an IPv6 one 120: the trailing ECN message was dropped by the kernel. *)
Example C19_recv_budget_refuted_at_96 :
  recv_fits_all layout_96 = false /\ send_fits_all layout_96 = true /\
  total_space layout_96 (recv_sizes layout_96 {| r_sock6 := false; r_pkt4 := true; r_gro := true; r_ts := true |}) = 112 /\
  total_space layout_96 (recv_sizes layout_96 {| r_sock6 := true; r_pkt4 := false; r_gro := true; r_ts := true |}) = 120.
Proof. vm_compute. repeat split; reflexivity. Qed.

(** * Receive buffers sized as documented hold the largest GRO batch
    [UdpSocketState::gro_segments()] is what callers multiply the datagram size with to size a
    receive buffer (quinn's [RecvState] does).  The kernel coalesces at most UDP_GRO_CNT_MAX = 64
    segments (assumption about Linux, listed in the trusted base); the value the compiled crate
    reports on a fresh loopback socket ([UDP_GRO_SEGMENTS], read on every run) must therefore be
    64 when GRO is available, or 1 when it is not — and with that value every batch fits. *)
Example C19_gro_segments_constant :
  Constants.UDP_GRO_SEGMENTS = 64 \/ Constants.UDP_GRO_SEGMENTS = 1.
Proof. vm_compute. first [left; reflexivity | right; reflexivity]. Qed.

Theorem C19_gro_buffer_holds_batch : forall mss n last,
  0 <= mss -> 0 <= last <= mss -> 1 <= n <= 64 -> Constants.UDP_GRO_SEGMENTS = 64 ->
  (n - 1) * mss + last <= mss * Constants.UDP_GRO_SEGMENTS.
Proof. intros mss n last Hm Hl Hn ->. nia. Qed.
Print Assumptions C19_gro_buffer_holds_batch.
