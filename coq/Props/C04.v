(** C04 — Only authentic packets are acted on, each at most once (component level: [Dedup],
    the packet acceptance decisions, the reset token of the connection ID in use).
    Property theorems only; proofs under Proofs/DedupProofs.v, PktAcceptProofs.v, CidQueueToken.v.
    Models: Model/Dedup.v (quinn-proto/src/connection/spaces.rs), Model/PktAccept.v,
    Model/CidQueue.v, each tied to the code by the correspondence check on every run. *)
From QV Require Import Lib.Tac Lib.Corr Model.Dedup Proofs.DedupProofs gen.Constants.
From QV Require Import Model.PacketNumber Model.PktAccept Proofs.PktAcceptProofs.
From QV Require Model.CidQueue Proofs.CidQueueProofs Proofs.CidQueueToken.
From Coq Require Import List.
Open Scope Z_scope.

(** The model's window constants are the ones of the compiled crate. *)
Example C04_dedup_constants :
  Dedup.WINDOW_SIZE = Constants.DEDUP_WINDOW_SIZE /\ Dedup.BITS = Constants.DEDUP_WINDOW_BITS.
Proof. vm_compute. split; reflexivity. Qed.

(** For every sequence [l] of packet numbers handed to [insert] (arbitrary order, gaps, jumps of
    any size), with [ds] the "duplicate" answers: a number that was inserted before — whatever
    happened in between — and a number left of the window are reported duplicate.  Hence each
    packet number is reported non-duplicate at most once. *)
Theorem C04_dedup_at_most_once : forall l d ds,
  Forall (fun p => 0 <= p) l ->
  inserts Dedup.init l = Some (d, ds) ->
  forall j p, nth_error l j = Some p ->
    (In p (firstn j l) \/ p + Constants.DEDUP_WINDOW_SIZE <= maxl (firstn j l)) ->
    nth_error ds j = Some true.
Proof. exact dedup_at_most_once. Qed.
Print Assumptions C04_dedup_at_most_once.

Theorem C04_dedup_new_at_most_once : forall l d ds,
  Forall (fun p => 0 <= p) l ->
  inserts Dedup.init l = Some (d, ds) ->
  forall i j p, (i < j)%nat -> nth_error l i = Some p -> nth_error l j = Some p ->
    nth_error ds j = Some true.
Proof. exact dedup_new_at_most_once. Qed.
Print Assumptions C04_dedup_new_at_most_once.

(** No false duplicates inside the window: a number never inserted before and not more than
    WINDOW_SIZE - 1 below the highest one so far is reported non-duplicate. *)
Theorem C04_dedup_first_time_fresh_in_window : forall l d ds,
  Forall (fun p => 0 <= p) l ->
  inserts Dedup.init l = Some (d, ds) ->
  forall j p, nth_error l j = Some p ->
    ~ In p (firstn j l) -> maxl (firstn j l) < p + Constants.DEDUP_WINDOW_SIZE ->
    nth_error ds j = Some false.
Proof. exact dedup_first_time_fresh_in_window. Qed.
Print Assumptions C04_dedup_first_time_fresh_in_window.

(** [insert] never panics on packet numbers below [u64::MAX] (QUIC packet numbers are < 2^62),
    and [next] is one more than the highest number inserted. *)
Theorem C04_dedup_total : forall l d0,
  Forall (fun p => p < 2 ^ 64 - 1) l ->
  exists d ds, inserts d0 l = Some (d, ds) /\ length ds = length l.
Proof. exact dedup_total. Qed.
Print Assumptions C04_dedup_total.

Theorem C04_dedup_next : forall l d ds,
  Forall (fun p => 0 <= p) l ->
  inserts Dedup.init l = Some (d, ds) -> next d = maxl l + 1.
Proof. exact dedup_next_is_highest_plus_one. Qed.
Print Assumptions C04_dedup_next.

(** [smallest_missing_in_interval(l, u)] (used to decide on immediate ACKs) is exact with respect
    to the abstract membership [seen] (inserted, or left of the window): it returns the smallest
    number strictly between the bounds that has not been seen, [None] if there is none; and it
    never panics when its documented preconditions hold. [missing_in_interval] is its [is_some]. *)
Theorem C04_dedup_smallest_missing_exact : forall d l u r,
  0 <= l ->
  smallest_missing d l u = Some r ->
  match r with
  | None => forall m, l < m < u -> seen d m = true
  | Some q => l < q < u /\ seen d q = false /\ forall m, l < m < q -> seen d m = true
  end.
Proof. exact smallest_missing_exact. Qed.
Print Assumptions C04_dedup_smallest_missing_exact.

Theorem C04_dedup_smallest_missing_total : forall d l u,
  0 <= l -> l <= u -> 1 <= next d -> u <= next d - 1 -> smallest_missing d l u <> None.
Proof. exact smallest_missing_total. Qed.
Print Assumptions C04_dedup_smallest_missing_total.

(** [seen] is what [insert] answers, and for a state reached by inserting the numbers [l] it is
    exactly "inserted before, or left of the window". *)
Theorem C04_dedup_seen_is_insert_answer : forall d p d' dup,
  insert d p = Some (d', dup) -> dup = seen d p.
Proof. exact insert_dup. Qed.
Print Assumptions C04_dedup_seen_is_insert_answer.

Theorem C04_dedup_seen_spec : forall l d ds,
  Forall (fun p => 0 <= p) l ->
  inserts Dedup.init l = Some (d, ds) ->
  forall m, 0 <= m ->
    seen d m = Dedup.mem m l || (m + Constants.DEDUP_WINDOW_SIZE <=? maxl l).
Proof. exact seen_spec. Qed.
Print Assumptions C04_dedup_seen_spec.

(** * packet acceptance decisions (connection/packet_crypto.rs), packet protection as an oracle *)

Example C04_reset_token_size : PktAccept.RESET_TOKEN_SIZE = Constants.RESET_TOKEN_SIZE.
Proof. vm_compute. reflexivity. Qed.

(** [decrypt_packet_body] reports a packet as decrypted only if it was sealed under a key of this
    connection that is legitimate for its header: the 0-RTT key for a 0-RTT packet, the space's
    current key (1-RTT: only in the connection's key phase), the previous 1-RTT key only for a
    packet of the other phase numbered below the end of the previous phase, the next 1-RTT key
    only as a key update that is newer than every packet received and not while an earlier
    remote update is unacknowledged.  (Key ids: 10/11/12 current keys per space, 20 previous,
    21 next, 30 0-RTT.) *)
Theorem C04_decrypt_only_under_legitimate_key :
  forall kind kp pn rx ckp prev np zp sealed rok n a u,
  0 <= kind <= 4 ->
  decrypt kind kp pn rx ckp prev np zp sealed rok = Some (Decrypted n a u) ->
  n = expand 4 pn (rx + 1) /\ kind <> 4 /\
  ((kind = 2 /\ sealed = 30 /\ zp = true /\ u = false) \/
   (kind <> 2 /\ sealed = 10 + space_of kind /\ u = false /\ (kind = 3 -> kp = ckp)) \/
   (kind = 3 /\ kp <> ckp /\ sealed = 20 /\ u = false /\
    exists p, prev = Some p /\ match end_packet p with None => True | Some e => n < e end) \/
   (kind = 3 /\ kp <> ckp /\ sealed = 21 /\ u = true /\ np = true /\ rx < n /\
    match prev with Some p => update_unacked p = false | None => True end)).
Proof. exact decrypt_only_under_legitimate_key. Qed.
Print Assumptions C04_decrypt_only_under_legitimate_key.

(** A datagram is treated as a stateless reset iff it is at least RESET_TOKEN_SIZE + 5 bytes long
    and its last 16 bytes are exactly the token expected for the CID in use — over all suffixes. *)
Theorem C04_reset_only_on_exact_token : forall token pkt,
  reset_detect token pkt = true <->
  exists t, token = Some t /\ Constants.RESET_TOKEN_SIZE + 5 <= Z.of_nat (length pkt) /\ lastn 16 pkt = t.
Proof. exact reset_only_on_exact_token. Qed.
Print Assumptions C04_reset_only_on_exact_token.

Theorem C04_unprotect_reset_flag : forall token cid_len pkt p r,
  unprotect token cid_len pkt = Some (Some (p, r)) -> r = reset_detect token pkt.
Proof. exact unprotect_reset_flag. Qed.
Print Assumptions C04_unprotect_reset_flag.

(** Non-vacuity: a jump of 200, a late arrival inside the window, one left of it, a replay. *)
Example C04_dedup_example :
  inserts Dedup.init [0; 1; 3; 203; 100; 74; 75; 3; 100; 204; 75] =
  Some (Dedup.mk (2 ^ 103 + 1) 205,
        [false; false; false; false; false; true; false; true; true; false; true]).
Proof. vm_compute. reflexivity. Qed.
Example C04_dedup_query_example :
  smallest_missing (Dedup.mk (2 ^ 103 + 1) 205) 100 203 = Some (Some 101) /\
  smallest_missing (Dedup.mk (2 ^ 103 + 1) 205) 3 100 = Some (Some 76) /\
  smallest_missing (Dedup.mk (2 ^ 103 + 1) 205) 203 204 = Some None.
Proof. vm_compute. repeat split; reflexivity. Qed.

(** * Stateless reset tokens follow the connection ID in use (cid_queue.rs).
    "...a stateless reset carrying exactly the token the peer issued for the connection ID in
    use": whenever [CidQueue::insert] (NEW_CONNECTION_ID with retire_prior_to) or
    [CidQueue::next] moves the active remote CID, the reset token it hands to the endpoint
    (which then replaces the token it matches incoming datagrams against) is the token issued
    with the CID that is active AFTER the call — for every handshake-time sequence of
    [update_initial_cid] followed by every sequence of inserts and nexts. *)
Theorem C04_reset_token_follows_active_cid : forall id0 pre post s outs,
  Forall CidQueueProofs.upd_op pre -> Forall CidQueueProofs.main_op post ->
  CidQueue.run_ops CID_QUEUE_LEN (CidQueue.new CID_QUEUE_LEN id0) (pre ++ post) = Some (s, outs) ->
  Forall2 CidQueueToken.tok_ok (pre ++ post) outs.
Proof. exact (CidQueueToken.cidqueue_token_lemma CID_QUEUE_LEN eq_refl). Qed.
Print Assumptions C04_reset_token_follows_active_cid.

(** non-vacuity: the second insert retires sequence numbers 0..2; CID 7 (sequence 2) becomes
    active and its token (7) is the one reported *)
Example C04_reset_token_example :
  CidQueue.run [[1; 2; 0; 7]; [1; 3; 2; 8]; [2]] = [[0; 0; 0]; [2; 7; 1; 0; 2; 7]; [3; 8; 1; 8; 2; 3]].
Proof. vm_compute. reflexivity. Qed.
