(** Proofs about Model/Header.v: header round trip and exact coalescing split. *)
From QV Require Import Lib.Tac Lib.Bytes Lib.Corr Model.Varint Model.Header
  Proofs.BytesProofs Proofs.VarintProofs.
Open Scope Z_scope.

Lemma be4_val v : 0 <= v < 2 ^ 32 -> be_val (be4 v) 0 = v.
Proof. intros Hv. unfold be4. rewrite Z.mod_small by exact Hv. now apply be_val_small. Qed.

Lemma decode_long_cid c x : zlen c <= MAX_CID -> decode_long (cid_long c ++ x) = Some (c, x).
Proof.
  intros Hc. unfold decode_long, cid_long. cbn [app].
  replace (MAX_CID <? zlen c) with false by lia. rewrite to_nat_zlen. now apply split_app.
Qed.

(** The Length field: always the 2-byte varint form. *)
Lemma decode_len2 len r :
  0 <= len < 2 ^ 14 -> Varint.decode (be_bytes 2 (2 ^ 14 + len) ++ r) = Some (len, r).
Proof. intros Hl. exact (decode_vform 1 len r ltac:(lia) Hl). Qed.

Lemma pn_bytes_val pnl pn : 0 <= pn < win pnl -> be_val (pn_bytes pnl pn) 0 = pn.
Proof. intros Hp. unfold pn_bytes. rewrite Z.mod_small by exact Hp. now apply be_val_small. Qed.

Lemma pn_bytes_length pnl pn : length (pn_bytes pnl pn) = pnl.
Proof. apply be_bytes_length. Qed.

Lemma with_pn_ok first P' pnl pn payload mk ok :
  first mod 4 = Z.of_nat pnl - 1 -> 0 <= pn < win pnl ->
  4 <= Z.of_nat pnl + zlen payload ->
  with_pn ((first :: P') ++ pn_bytes pnl pn ++ payload) (length (first :: P')) mk ok
  = FOk (zlen (first :: P') + Z.of_nat pnl) (zlen payload) ok (mk pnl pn).
Proof.
  intros Hf Hpn Hsz. unfold with_pn.
  set (P := first :: P').
  assert (Hlen : zlen (P ++ pn_bytes pnl pn ++ payload) = zlen P + Z.of_nat pnl + zlen payload).
  { unfold zlen. rewrite !app_length, pn_bytes_length. lia. }
  rewrite Hlen. fold (zlen P).
  destruct (zlen P + Z.of_nat pnl + zlen payload <? zlen P + 4) eqn:E; [lia|].
  replace (hd 0 (P ++ pn_bytes pnl pn ++ payload)) with first by reflexivity.
  rewrite Hf. replace (Z.to_nat (1 + (Z.of_nat pnl - 1))) with pnl by lia.
  rewrite skipn_app_exact by reflexivity.
  rewrite firstn_app_exact by apply pn_bytes_length.
  rewrite pn_bytes_val by exact Hpn.
  f_equal; unfold zlen; lia.
Qed.

Lemma decode_packet_with_len lcl grease versions P Q rest p :
  decode_plain lcl grease versions (P ++ Q ++ rest) = PdOk p (Q ++ rest) ->
  payload_len p = Some (zlen Q) ->
  decode_packet lcl grease versions (P ++ Q ++ rest) =
    match finish p (P ++ Q) (length P) with
    | FErr e => DFinishErr e (zlen (P ++ Q)) (if zlen rest =? 0 then -1 else zlen rest) (zlen Q)
    | FOk hl pl ok h =>
        DOk (zlen (P ++ Q)) (if zlen rest =? 0 then -1 else zlen rest) (zlen Q) hl pl ok h
    end.
Proof.
  intros Hd Hl. unfold decode_packet. rewrite Hd, Hl.
  assert (Hpos : (length (P ++ Q ++ rest) - length (Q ++ rest))%nat = length P).
  { rewrite !app_length. lia. }
  rewrite Hpos.
  assert (Hpl : Z.of_nat (length P) + zlen Q = zlen (P ++ Q)).
  { unfold zlen. rewrite app_length. lia. }
  rewrite Hpl.
  assert (Hdg : zlen (P ++ Q ++ rest) = zlen (P ++ Q) + zlen rest).
  { unfold zlen. rewrite !app_length. lia. }
  rewrite Hdg.
  destruct (zlen (P ++ Q) + zlen rest <? zlen (P ++ Q)) eqn:E1; [unfold zlen in *; lia|].
  replace (zlen (P ++ Q) + zlen rest =? zlen (P ++ Q)) with (zlen rest =? 0) by lia.
  replace (zlen (P ++ Q) + zlen rest - zlen (P ++ Q)) with (zlen rest) by lia.
  replace (Z.to_nat (zlen (P ++ Q))) with (length (P ++ Q)) by (unfold zlen; lia).
  rewrite (app_assoc P Q rest), firstn_app_exact by reflexivity.
  reflexivity.
Qed.

Lemma decode_packet_no_len lcl grease versions P R p :
  decode_plain lcl grease versions (P ++ R) = PdOk p R ->
  payload_len p = None ->
  decode_packet lcl grease versions (P ++ R) =
    match finish p (P ++ R) (length P) with
    | FErr e => DFinishErr e (zlen (P ++ R)) (-1) (-1)
    | FOk hl pl ok h => DOk (zlen (P ++ R)) (-1) (-1) hl pl ok h
    end.
Proof.
  intros Hd Hl. unfold decode_packet. rewrite Hd, Hl.
  replace (length (P ++ R) - length R)%nat with (length P) by (rewrite app_length; lia).
  rewrite Z.ltb_irrefl, Z.eqb_refl.
  replace (Z.to_nat (zlen (P ++ R))) with (length (P ++ R)) by (unfold zlen; lia).
  rewrite firstn_all. reflexivity.
Qed.

Ltac wf_inv H :=
  cbn [wf_header] in H; unfold wf_version, wf_cid, wf_pn, win in H; andb_hyps.

Ltac prefix_start H := wf_inv H; cbn [header_prefix]; rewrite <- !app_assoc; cbn [app].

Lemma decode_plain_long_common lcl grease versions first v d s X :
  128 <= first < 256 -> (first / 64) mod 2 = 1 ->
  0 < v < 2 ^ 32 -> mem v versions = true -> zlen d <= MAX_CID -> zlen s <= MAX_CID ->
  decode_plain lcl grease versions (first :: be4 v ++ cid_long d ++ cid_long s ++ X) =
    let ty := (first / 16) mod 4 in
    if ty =? 0 then
      match Varint.decode X with
      | None => PdErr E_END
      | Some (tl, r4) =>
          if zlen r4 <? tl then PdErr E_TOKEN
          else
            match Varint.decode (skipn (Z.to_nat tl) r4) with
            | None => PdErr E_END
            | Some (len, r5) => PdOk (PInitial v d s (firstn (Z.to_nat tl) r4) len) r5
            end
      end
    else if ty =? 3 then PdOk (PRetry v d s) X
    else
      match Varint.decode X with
      | None => PdErr E_END
      | Some (len, r4) => PdOk (PLong (ty =? 1) v d s len) r4
      end.
Proof.
  intros Hf Hfix Hv Hm Hd Hs. unfold decode_plain.
  rewrite Hfix. change (1 =? 0) with false. rewrite andb_false_r.
  replace (first <? 128) with false by lia.
  unfold take. rewrite (split_app 4 (be4 v)) by apply be_bytes_length.
  rewrite be4_val by lia.
  rewrite decode_long_cid by exact Hd. rewrite decode_long_cid by exact Hs.
  replace (v =? 0) with false by lia. now rewrite Hm.
Qed.

(** The two low bits of the first byte hold the packet-number length; the tests on the higher
    bits do not see them. *)
Lemma decode_plain_initial lcl grease versions v d s tok pnl pn len R :
  wf_header lcl grease versions (HInitial v d s tok pnl pn) = true -> 0 <= len < 2 ^ 14 ->
  decode_plain lcl grease versions
    (header_prefix (HInitial v d s tok pnl pn) ++ be_bytes 2 (2 ^ 14 + len) ++ R)
  = PdOk (PInitial v d s tok len) R.
Proof.
  intros Hwf Hl. prefix_start Hwf.
  set (first := 192 + (Z.of_nat pnl - 1)).
  rewrite decode_plain_long_common by (assumption || subst first; lia).
  replace ((first / 16) mod 4) with 0 by (subst first; lia). cbv zeta. change (0 =? 0) with true.
  cbv iota. rewrite decode_venc by (unfold zlen in *; lia).
  rewrite zlen_app_ltb, to_nat_zlen, skipn_app_exact, firstn_app_exact by reflexivity.
  now rewrite decode_len2 by exact Hl.
Qed.

Lemma decode_plain_long lcl grease versions zr v d s pnl pn len R :
  wf_header lcl grease versions (HLong zr v d s pnl pn) = true -> 0 <= len < 2 ^ 14 ->
  decode_plain lcl grease versions
    (header_prefix (HLong zr v d s pnl pn) ++ be_bytes 2 (2 ^ 14 + len) ++ R)
  = PdOk (PLong zr v d s len) R.
Proof.
  intros Hwf Hl. prefix_start Hwf.
  set (first := (if zr then 208 else 224) + (Z.of_nat pnl - 1)).
  rewrite decode_plain_long_common by (assumption || subst first; destruct zr; lia).
  replace ((first / 16) mod 4) with (if zr then 1 else 2) by (subst first; destruct zr; lia).
  cbv zeta. rewrite decode_len2 by exact Hl. destruct zr; reflexivity.
Qed.

Lemma decode_plain_retry lcl grease versions v d s R :
  wf_header lcl grease versions (HRetry v d s) = true ->
  decode_plain lcl grease versions (header_prefix (HRetry v d s) ++ R) = PdOk (PRetry v d s) R.
Proof.
  intros Hwf. prefix_start Hwf.
  now rewrite decode_plain_long_common by (assumption || lia).
Qed.

Lemma decode_plain_vn lcl grease versions random d s R :
  wf_header lcl grease versions (HVN random d s) = true ->
  decode_plain lcl grease versions (header_prefix (HVN random d s) ++ R) = PdOk (PVN random d s) R.
Proof.
  intros Hwf. prefix_start Hwf. unfold decode_plain.
  rewrite (Z.mod_small random 128) by lia.
  replace (negb grease && (((128 + random) / 64) mod 2 =? 0)) with false by (destruct grease; lia).
  replace (128 + random <? 128) with false by lia.
  unfold take. rewrite (split_app 4 (be4 0)) by apply be_bytes_length.
  rewrite !decode_long_cid by lia.
  change (be_val (be4 0) 0 =? 0) with true. cbv iota.
  do 2 f_equal. lia.
Qed.

Lemma short_first_bits spin kp k :
  0 <= k < 4 ->
  let first := 64 + 4 * b2z kp + 32 * b2z spin + k in
  first < 128 /\ (first / 64) mod 2 = 1 /\ ((first / 32) mod 2 =? 1) = spin /\
  ((first / 4) mod 2 =? 1) = kp /\ (first / 8) mod 4 = 0 /\ first mod 4 = k.
Proof.
  intros Hk. assert (Hc : k = 0 \/ k = 1 \/ k = 2 \/ k = 3) by lia.
  destruct Hc as [->|[->|[->| ->]]]; destruct kp, spin; vm_compute; repeat split.
Qed.

Lemma decode_plain_short lcl grease versions spin kp d pnl pn R :
  wf_header lcl grease versions (HShort spin kp d pnl pn) = true ->
  decode_plain lcl grease versions (header_prefix (HShort spin kp d pnl pn) ++ R)
  = PdOk (PShort spin d) R.
Proof.
  intros Hwf. prefix_start Hwf. unfold decode_plain.
  destruct (short_first_bits spin kp (Z.of_nat pnl - 1) ltac:(lia)) as (Hlt & Hfix & -> & _).
  rewrite Hfix. change (1 =? 0) with false. rewrite andb_false_r.
  replace (_ <? 128) with true by lia.
  unfold take. now rewrite split_app by (apply Nat.eqb_eq; assumption).
Qed.

(** Packets with a Length field: [p] is the plain header awaiting the length, [mk] the header
    awaiting the packet number. *)
Lemma long_roundtrip lcl grease versions h p mk first P0 pnl pn payload rest :
  header_prefix h = first :: P0 -> h = mk pnl pn -> has_length h = true ->
  pn_of h = Some (pnl, pn) -> wf_pn pnl pn = true ->
  first mod 4 = Z.of_nat pnl - 1 -> (first / 4) mod 4 = 0 ->
  4 <= Z.of_nat pnl + zlen payload < 2 ^ 14 ->
  (forall len R, 0 <= len < 2 ^ 14 ->
     decode_plain lcl grease versions (header_prefix h ++ be_bytes 2 (2 ^ 14 + len) ++ R)
     = PdOk (p len) R) ->
  (forall len, payload_len (p len) = Some len) ->
  (forall len pk pos,
     finish (p len) pk pos = with_pn pk pos mk ((hd 0 pk / 4) mod 4 =? 0)) ->
  exists hl pk, encode_packet h payload = Some (hl, pk) /\
    decode_packet lcl grease versions (pk ++ rest) = expected_decode h hl pk payload rest.
Proof.
  intros Hpre Hh Hlen Hpn Hwf Hlow Hres Hsz Hplain Hpl Hfin.
  unfold encode_packet, expected_decode, pnl_of. rewrite Hpn, Hlen.
  replace ((_ <? 2 ^ 14) && (4 <=? _)) with true by lia.
  unfold wf_pn in Hwf. fold (win pnl) in Hwf.
  set (len := Z.of_nat pnl + zlen payload) in *.
  set (P := header_prefix h ++ be_bytes 2 (2 ^ 14 + len)).
  set (Q := pn_bytes pnl pn ++ payload).
  assert (HQ : zlen Q = len).
  { subst Q. rewrite zlen_app. unfold zlen at 1. now rewrite pn_bytes_length. }
  do 2 eexists. split; [reflexivity|].
  replace (header_prefix h ++ be_bytes 2 (2 ^ 14 + len) ++ Q) with (P ++ Q)
    by (subst P; now rewrite <- app_assoc).
  rewrite <- app_assoc, (decode_packet_with_len _ _ _ P Q rest (p len)).
  2:{ subst P. rewrite <- app_assoc. apply Hplain. lia. }
  2:{ now rewrite HQ. }
  assert (HP : P = first :: (P0 ++ be_bytes 2 (2 ^ 14 + len))) by (subst P; now rewrite Hpre).
  rewrite Hfin, HP. subst Q. cbn [app hd]. change (first :: ?x ++ ?y) with ((first :: x) ++ y).
  rewrite with_pn_ok by lia. rewrite Hres, <- HP, <- Hh, HQ. f_equal.
  subst P. rewrite zlen_app. unfold zlen at 2. rewrite be_bytes_length. lia.
Qed.

Lemma header_roundtrip lcl grease versions h payload rest :
  wf_header lcl grease versions h = true -> size_ok h payload = true ->
  exists hl pk, encode_packet h payload = Some (hl, pk) /\
    decode_packet lcl grease versions (pk ++ rest) = expected_decode h hl pk payload rest.
Proof.
  intros Hwf Hsz. pose proof Hwf as Hwf0. unfold size_ok in Hsz.
  destruct h as [v d s tok pnl pn|zr v d s pnl pn|v d s|spin kp d pnl pn|random d s];
    cbn [pn_of has_length negb orb] in Hsz; wf_inv Hwf.
  - apply (long_roundtrip _ _ _ _ (PInitial v d s tok) (HInitial v d s tok)
             (192 + (Z.of_nat pnl - 1)) (be4 v ++ cid_long d ++ cid_long s ++ venc (zlen tok) ++ tok)
             pnl pn); try reflexivity; try lia.
    + unfold wf_pn, win. lia.
    + intros len R Hl. now apply decode_plain_initial.
  - apply (long_roundtrip _ _ _ _ (PLong zr v d s) (HLong zr v d s)
             ((if zr then 208 else 224) + (Z.of_nat pnl - 1)) (be4 v ++ cid_long d ++ cid_long s)
             pnl pn); try reflexivity; try (destruct zr; lia).
    + unfold wf_pn, win. lia.
    + intros len R Hl. now apply decode_plain_long.
  - unfold encode_packet. cbn [pn_of]. do 2 eexists. split; [reflexivity|]. rewrite <- app_assoc.
    rewrite (decode_packet_no_len _ _ _ _ _ (PRetry v d s))
      by (first [apply decode_plain_retry; exact Hwf0 | reflexivity]).
    cbn [finish]. unfold expected_decode. cbn [has_length reserved_expected].
    change (hd 0 (header_prefix (HRetry v d s) ++ payload ++ rest)) with 240.
    change ((240 / 4) mod 4 =? 0) with true.
    rewrite !zlen_app. f_equal; unfold zlen; lia.
  - unfold encode_packet. cbn [pn_of has_length].
    replace (4 <=? Z.of_nat pnl + zlen payload) with true by lia.
    do 2 eexists. split; [reflexivity|].
    destruct (short_first_bits spin kp (Z.of_nat pnl - 1) ltac:(lia)) as (_ & _ & _ & Hkp & Hres & Hlow).
    set (first := 64 + 4 * b2z kp + 32 * b2z spin + (Z.of_nat pnl - 1)) in *.
    change (header_prefix (HShort spin kp d pnl pn)) with (first :: d).
    rewrite <- !app_assoc.
    rewrite (decode_packet_no_len _ _ _ (first :: d) _ (PShort spin d))
      by (first [exact (decode_plain_short _ _ _ spin kp d pnl pn _ Hwf0) | reflexivity]).
    cbn [finish app hd]. change (first :: d ++ ?x) with ((first :: d) ++ x).
    clearbody first. rewrite with_pn_ok by (rewrite ?zlen_app; unfold win, zlen in *; lia).
    unfold expected_decode. cbn [has_length reserved_expected]. rewrite Hkp, Hres.
    rewrite !zlen_app. f_equal; lia.
  - unfold encode_packet. cbn [pn_of]. do 2 eexists. split; [reflexivity|]. rewrite <- app_assoc.
    rewrite (decode_packet_no_len _ _ _ _ _ (PVN random d s))
      by (first [apply decode_plain_vn; exact Hwf0 | reflexivity]).
    cbn [finish]. unfold expected_decode. cbn [has_length reserved_expected].
    change (hd 0 (header_prefix (HVN random d s) ++ payload ++ rest)) with (128 + random mod 128).
    rewrite (Z.mod_small random 128) by lia.
    rewrite !zlen_app. f_equal; unfold zlen; lia.
Qed.

(** The split point is exactly the end of the encoded packet: position of the Length field's end
    plus the encoded Length; what follows is handed back untouched as the next coalesced packet. *)
Lemma coalesced_split_exact lcl grease versions h payload rest :
  wf_header lcl grease versions h = true -> size_ok h payload = true -> has_length h = true ->
  exists hl pk, encode_packet h payload = Some (hl, pk) /\
    exists hl' pl ok h',
      decode_packet lcl grease versions (pk ++ rest) =
        DOk (zlen pk) (if zlen rest =? 0 then -1 else zlen rest) (pnl_of h + zlen payload) hl' pl ok h' /\
      zlen pk = (hl - pnl_of h) + (pnl_of h + zlen payload) /\
      firstn (Z.to_nat (zlen pk)) (pk ++ rest) = pk /\ skipn (Z.to_nat (zlen pk)) (pk ++ rest) = rest.
Proof.
  intros Hwf Hsz Hl.
  destruct (header_roundtrip lcl grease versions h payload rest Hwf Hsz) as (hl & pk & He & Hd).
  exists hl, pk. split; [exact He|].
  unfold expected_decode in Hd. rewrite Hl in Hd.
  do 4 eexists. split; [exact Hd|].
  replace (Z.to_nat (zlen pk)) with (length pk) by (unfold zlen; lia).
  rewrite firstn_app_exact, skipn_app_exact by reflexivity. split; [|split; reflexivity].
  unfold encode_packet in He. rewrite Hl in He. unfold pnl_of.
  destruct (pn_of h) as [[pnl pn]|] eqn:Epn.
  2:{ destruct h; discriminate. }
  destruct ((Z.of_nat pnl + zlen payload <? 2 ^ 14) && (4 <=? Z.of_nat pnl + zlen payload));
    [|discriminate].
  injection He as <- <-.
  unfold zlen. rewrite app_length. cbn [length]. rewrite app_length, pn_bytes_length. lia.
Qed.
