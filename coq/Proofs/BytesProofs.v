(** Big-endian byte strings (Lib/Bytes.v) and prefixes of concatenations, for all codec proofs;
    and [andb_hyps], which splits every hypothesis [_ && _ = true]. *)
From QV Require Import Lib.Tac Lib.Bytes.
Open Scope Z_scope.

Ltac andb_hyps :=
  repeat match goal with
         | H : _ && _ = true |- _ => apply andb_true_iff in H; destruct H
         end.

Lemma be_val_app a b acc : be_val (a ++ b) acc = be_val b (be_val a acc).
Proof. revert acc; induction a as [|x a IH]; intro acc; cbn [be_val app]; auto. Qed.

Lemma be_bytes_length n x : length (be_bytes n x) = n.
Proof. induction n as [|k IH]; cbn [be_bytes length]; auto. Qed.

Lemma be_bytes_all_bytes n x : all_bytes (be_bytes n x) = true.
Proof.
  induction n as [|k IH]; cbn [be_bytes all_bytes forallb]; auto.
  apply andb_true_iff; split; [|exact IH].
  unfold is_byte. pose proof (Z.mod_pos_bound (x / 256 ^ Z.of_nat k) 256 ltac:(lia)). lia.
Qed.

Lemma be_val_be_bytes n x acc :
  be_val (be_bytes n x) acc = acc * 256 ^ Z.of_nat n + x mod 256 ^ Z.of_nat n.
Proof.
  revert acc; induction n as [|k IH]; intro acc.
  - cbn [be_bytes be_val]. change (Z.of_nat 0) with 0. rewrite Z.pow_0_r, Z.mod_1_r. lia.
  - cbn [be_bytes be_val]. rewrite IH.
    rewrite Nat2Z.inj_succ, Z.pow_succ_r by lia.
    assert (Hp : 0 < 256 ^ Z.of_nat k) by (apply Z.pow_pos_nonneg; lia).
    set (p := 256 ^ Z.of_nat k) in *.
    rewrite (Z.mul_comm 256 p).
    rewrite (Z.rem_mul_r x p 256) by lia. lia.
Qed.

Lemma be_val_small n x : 0 <= x < 256 ^ Z.of_nat n -> be_val (be_bytes n x) 0 = x.
Proof. intros H. rewrite be_val_be_bytes. now apply Z.mod_small. Qed.

Lemma be_val_bound bs acc :
  all_bytes bs = true ->
  acc * 256 ^ zlen bs <= be_val bs acc < (acc + 1) * 256 ^ zlen bs.
Proof.
  revert acc; induction bs as [|b bs IH]; intros acc Hb.
  - cbn [be_val]. unfold zlen; cbn [length]. change (Z.of_nat 0) with 0. rewrite Z.pow_0_r. lia.
  - cbn [all_bytes forallb] in Hb. apply andb_true_iff in Hb as [Hb1 Hb2].
    unfold is_byte in Hb1.
    cbn [be_val]. specialize (IH (acc * 256 + b) Hb2).
    unfold zlen in *; cbn [length]. rewrite Nat2Z.inj_succ, Z.pow_succ_r by lia.
    assert (Hp : 0 < 256 ^ Z.of_nat (length bs)) by (apply Z.pow_pos_nonneg; lia).
    nia.
Qed.

Lemma all_bytes_app a b : all_bytes (a ++ b) = true <-> all_bytes a = true /\ all_bytes b = true.
Proof. unfold all_bytes. rewrite forallb_app. apply andb_true_iff. Qed.

Lemma all_bytes_firstn n bs : all_bytes bs = true -> all_bytes (firstn n bs) = true.
Proof.
  intros H. rewrite <- (firstn_skipn n bs) in H. now apply all_bytes_app in H.
Qed.

Lemma firstn_app_exact {A} (a b : list A) n : length a = n -> firstn n (a ++ b) = a.
Proof. intros <-. rewrite firstn_app, Nat.sub_diag, firstn_all. cbn. apply app_nil_r. Qed.

Lemma skipn_app_exact {A} (a b : list A) n : length a = n -> skipn n (a ++ b) = b.
Proof. intros <-. rewrite skipn_app, Nat.sub_diag, skipn_all. reflexivity. Qed.

Lemma ltb_length_app {A} (a b : list A) n : length a = n -> Nat.ltb (length (a ++ b)) n = false.
Proof. intros <-. apply Nat.ltb_ge. rewrite app_length. lia. Qed.

(** The body of [take n (a ++ b)], a constant that Header, TParams and Token each define. *)
Lemma split_app {A} n (a b : list A) :
  length a = n ->
  (if Nat.ltb (length (a ++ b)) n then None else Some (firstn n (a ++ b), skipn n (a ++ b)))
  = Some (a, b).
Proof. intros H. now rewrite ltb_length_app, firstn_app_exact, skipn_app_exact by exact H. Qed.

Lemma zlen_nil : zlen [] = 0.
Proof. reflexivity. Qed.

Lemma zlen_nonneg (d : list Z) : 0 <= zlen d.
Proof. unfold zlen. lia. Qed.

Lemma zlen_app (a b : list Z) : zlen (a ++ b) = zlen a + zlen b.
Proof. unfold zlen. rewrite app_length. lia. Qed.

Lemma zlen_app_ltb (a b : list Z) : (zlen (a ++ b) <? zlen a) = false.
Proof. rewrite zlen_app. unfold zlen. lia. Qed.

Lemma to_nat_zlen (l : list Z) : Z.to_nat (zlen l) = length l.
Proof. apply Nat2Z.id. Qed.
