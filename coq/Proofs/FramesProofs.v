(** Proofs about Model/Frames.v: primitive reader/writer round trips, frame round trips. *)
From QV Require Import Lib.Tac Lib.Bytes Lib.Corr Model.Varint Model.Frames
  Proofs.BytesProofs Proofs.VarintProofs.
Open Scope Z_scope.

Lemma wv_venc x : 0 <= x < 2 ^ 62 -> wv x = Some (venc x).
Proof. apply encode_venc. Qed.

Lemma get_var_venc x r : 0 <= x < 2 ^ 62 -> get_var (venc x ++ r) = DOk x r.
Proof. intros Hx. unfold get_var. now rewrite decode_venc. Qed.

Lemma get_n_app d r n : length d = n -> get_n n (d ++ r) = DOk d r.
Proof.
  intros H. unfold get_n. now rewrite ltb_length_app, firstn_app_exact, skipn_app_exact by exact H.
Qed.

Lemma u64_bytes_some v : 0 <= v <= U64_MAX -> u64_bytes v = Some (be_bytes 8 v).
Proof. intros Hv. unfold u64_bytes. now replace ((0 <=? v) && (v <=? U64_MAX)) with true by lia. Qed.

Lemma get_u64_bytes v r : 0 <= v <= U64_MAX -> get_u64 (be_bytes 8 v ++ r) = DOk v r.
Proof.
  intros Hv. unfold get_u64. rewrite get_n_app by apply be_bytes_length. cbn [bind].
  now rewrite be_val_small by (change (256 ^ Z.of_nat 8) with (U64_MAX + 1); lia).
Qed.

Lemma take_len_app d r :
  0 <= zlen d < 2 ^ 62 -> take_len (venc (zlen d) ++ d ++ r) = DOk d r.
Proof.
  intros Hd. unfold take_len. rewrite get_var_venc by exact Hd. cbn [bind].
  now rewrite zlen_app_ltb, to_nat_zlen, firstn_app_exact, skipn_app_exact.
Qed.

Lemma ocat_cons_some a tl :
  ocat (Some a :: tl) = match ocat tl with Some b => Some (a ++ b) | None => None end.
Proof. reflexivity. Qed.

Lemma wlen_bytes_some d :
  0 <= zlen d < 2 ^ 62 -> wlen_bytes d = Some (venc (zlen d) ++ d ++ []).
Proof. intros Hd. unfold wlen_bytes. rewrite wv_venc by exact Hd. reflexivity. Qed.

Lemma u64_add_some a b : a + b < 2 ^ 64 -> u64_add a b = Some (a + b).
Proof. intros H. unfold u64_add, U64_MAX. destruct (2 ^ 64 - 1 <? a + b) eqn:E; [lia|reflexivity]. Qed.

Lemma u64_sub_some a b : b <= a -> u64_sub a b = Some (a - b).
Proof. intros H. unfold u64_sub. destruct (a <? b) eqn:E; [lia|reflexivity]. Qed.

Lemma u64_sub_inv a b c : u64_sub a b = Some c -> b <= a /\ c = a - b.
Proof. unfold u64_sub. destruct (a <? b) eqn:E; intros [= <-]. lia. Qed.

(** A well-formedness hypothesis as bounds on the fields. *)
Ltac wf_fields :=
  andb_hyps; repeat match goal with H : in62 _ = true |- _ => apply in62_true in H end.

Ltac norm_app := rewrite <- ?app_assoc; cbn [app].

Definition frame_ty (withlen : bool) (f : frame) : Z :=
  match f with
  | Padding => 0 | Ping => 1
  | Ack _ _ _ None => 2 | Ack _ _ _ (Some _) => 3
  | ResetStream _ _ _ => 4 | StopSending _ _ => 5 | Crypto _ _ => 6 | NewToken _ => 7
  | Stream _ off fin _ => 8 + (if off =? 0 then 0 else 4) + (if withlen then 2 else 0) + b2z fin
  | MaxData _ => 16 | MaxStreamData _ _ => 17 | MaxStreams u _ => 18 + b2z u
  | DataBlocked _ => 20 | StreamDataBlocked _ _ => 21 | StreamsBlocked u _ => 22 + b2z u
  | NewConnectionId _ _ _ _ => 24 | RetireConnectionId _ => 25
  | PathChallenge _ => 26 | PathResponse _ => 27
  | CloseConn _ _ _ => 28 | CloseApp _ _ => 29
  | HandshakeDone => 30 | ImmediateAck => 31
  | Datagram _ => 48 + b2z withlen
  | AckFrequency _ _ _ _ => 175
  end.

Lemma try_next_venc ty x : 0 <= ty < 2 ^ 62 -> try_next (venc ty ++ x) = frame_body ty x.
Proof. intros H. unfold try_next. now rewrite get_var_venc. Qed.

(** Every field of the encoder is present: name the bytes, and let the decoder read the type. *)
Ltac rt_start :=
  rewrite !wv_venc by lia; cbn [ocat]; eexists; split; [reflexivity|]; intros r; norm_app;
  rewrite try_next_venc by lia.
Ltac rt_vars := repeat (rewrite get_var_venc by lia; cbn [bind]).
Ltac rt_done withlen := unfold absorb; destruct withlen; reflexivity.
(** A frame that is its type [k] and a run of varints: [b] is the branch of [frame_body] for [k],
    [h] the reader it is built from. *)
Ltac rt_plain withlen k b h :=
  rt_start; change (frame_body k) with b; unfold h; rt_vars; rt_done withlen.

Lemma b2z_range b : 0 <= b2z b <= 1.
Proof. destruct b; cbn [b2z]; lia. Qed.

Lemma stream_ty_bits (z l f : bool) :
  let ty := 8 + (if z then 0 else 4) + (if l then 2 else 0) + b2z f in
  0 <= ty < 64 /\ frame_body ty = body_stream ty /\
  bit ty 4 = negb z /\ bit ty 2 = l /\ bit ty 1 = f.
Proof. destruct z, l, f; cbn [b2z]; repeat split; try reflexivity; lia. Qed.

Lemma frame_roundtrip withlen max_len f :
  wf_frame f = true -> is_close f = false ->
  exists b, encode_frame withlen max_len f = Some b /\
    forall r, try_next (b ++ r) =
              DOk (absorb withlen f r) (if self_delimiting withlen f then r else []).
Proof.
  intros Hwf Hnc.
  destruct f; cbn [wf_frame is_close] in Hwf, Hnc; try discriminate; wf_fields;
    cbn [encode_frame self_delimiting].
  - rt_start. rt_done withlen.
  - rt_start. rt_done withlen.
  - rt_plain withlen 4 body_reset body_reset.
  - rt_plain withlen 5 body_stop body_stop.
  - rewrite wlen_bytes_some by assumption. rt_start.
    change (frame_body 6) with body_crypto. unfold body_crypto. rt_vars.
    rewrite take_len_app by assumption. rt_done withlen.
  - rewrite wlen_bytes_some by assumption. rt_start.
    change (frame_body 7) with body_new_token. unfold body_new_token.
    rewrite take_len_app by assumption. rt_done withlen.
  - (* Stream: the offset is written unless zero, the length on request; [fin] is one bit *)
    destruct (stream_ty_bits (off =? 0) withlen fin) as (Hty & Hb & Hb4 & Hb2 & Hb1).
    set (ty := 8 + _ + _ + b2z fin) in *. clearbody ty.
    destruct (Z.eqb_spec off 0) as [->|_], withlen; rewrite ?wlen_bytes_some by assumption;
      rt_start; rewrite Hb; unfold body_stream; rt_vars; rewrite Hb4, Hb2, Hb1; cbn [negb bind];
      rt_vars; rewrite ?take_len_app by assumption; cbn [bind absorb]; rewrite ?app_nil_r;
      reflexivity.
  - rt_plain withlen 16 (body_var1 MaxData) body_var1.
  - rt_plain withlen 17 (body_var2 MaxStreamData) body_var2.
  - assert (Hb : frame_body (18 + b2z uni) = body_var1 (MaxStreams uni)) by (destruct uni; reflexivity).
    pose proof (b2z_range uni). rt_start. rewrite Hb. unfold body_var1. rt_vars. rt_done withlen.
  - rt_plain withlen 20 (body_var1 DataBlocked) body_var1.
  - rt_plain withlen 21 (body_var2 StreamDataBlocked) body_var2.
  - assert (Hb : frame_body (22 + b2z uni) = body_var1 (StreamsBlocked uni))
      by (destruct uni; reflexivity).
    pose proof (b2z_range uni). rt_start. rewrite Hb. unfold body_var1. rt_vars. rt_done withlen.
  - match goal with H : Nat.eqb _ _ = true |- _ => rename H into Htok end.
    rewrite Htok. apply Nat.eqb_eq in Htok. unfold MAX_CID_SIZE in *.
    replace (20 <? zlen cid) with false by lia. cbn [negb orb].
    rt_start. change (frame_body 24) with body_new_cid. unfold body_new_cid. rt_vars.
    replace (seq <? retire_prior_to) with false by lia. cbn [get_u8 bind]. unfold MAX_CID_SIZE.
    replace ((20 <? zlen cid) || (zlen cid =? 0)) with false by lia.
    rewrite to_nat_zlen, get_n_app by reflexivity. cbn [bind].
    rewrite get_n_app by exact Htok. rt_done withlen.
  - rt_plain withlen 25 (body_var1 RetireConnectionId) body_var1.
  - rewrite u64_bytes_some by lia. rt_start.
    change (frame_body 26) with (body_u64 PathChallenge). unfold body_u64.
    rewrite get_u64_bytes by lia. rt_done withlen.
  - rewrite u64_bytes_some by lia. rt_start.
    change (frame_body 27) with (body_u64 PathResponse). unfold body_u64.
    rewrite get_u64_bytes by lia. rt_done withlen.
  - (* Datagram: bit 1 of the type says whether a length follows *)
    destruct withlen; cbn [b2z].
    + rewrite wlen_bytes_some by assumption. change (48 + 1) with 49. rt_start.
      change (frame_body 49) with (body_datagram 49). unfold body_datagram.
      change (bit 49 1) with true. cbv iota. now rewrite take_len_app by assumption.
    + change (48 + 0) with 48. rt_start.
      change (frame_body 48) with (body_datagram 48). unfold body_datagram.
      change (bit 48 1) with false. reflexivity.
  - rt_plain withlen 175 body_ack_freq body_ack_freq.
  - rt_start. rt_done withlen.
  - rt_start. rt_done withlen.
Qed.

Lemma firstn_zlen (n : Z) (l : list Z) : 0 <= n <= zlen l -> zlen (firstn (Z.to_nat n) l) = n.
Proof. intros H. unfold zlen in *. rewrite firstn_length. lia. Qed.

Lemma close_reason_len_some max_len extra len sl :
  Varint.size len = Some sl -> 0 <= extra -> 0 <= sl -> 1 + extra + sl <= max_len ->
  close_reason_len max_len extra len = Some (Z.min len (max_len - 1 - extra - sl)).
Proof.
  intros Hs He Hsl Hm. unfold close_reason_len. rewrite Hs. now rewrite !u64_sub_some by lia.
Qed.

Lemma close_tail max_len extra reason sl :
  Varint.size (zlen reason) = Some sl -> zlen reason < 2 ^ 62 -> 0 <= extra ->
  1 + extra + sl <= max_len ->
  exists n, close_reason_len max_len extra (zlen reason) = Some n /\ 0 <= n <= zlen reason /\
    (forall r, take_len (venc n ++ firstn (Z.to_nat n) reason ++ r)
               = DOk (firstn (Z.to_nat n) reason) r) /\
    1 + extra + zlen (venc n ++ firstn (Z.to_nat n) reason) <= max_len.
Proof.
  intros Hs Hl He Hm. assert (H0 : 0 <= zlen reason) by (unfold zlen; lia).
  rewrite size_venc in Hs by lia. injection Hs as <-.
  pose proof (venc_length (zlen reason) ltac:(lia)) as Hsl.
  rewrite (close_reason_len_some max_len extra _ (zlen (venc (zlen reason))))
    by (try apply size_venc; unfold zlen in *; lia).
  set (n := Z.min _ _). assert (Hn : 0 <= n <= zlen reason) by (unfold zlen in *; lia).
  pose proof (firstn_zlen n reason Hn) as Hd.
  exists n. split; [reflexivity|]. split; [exact Hn|]. split.
  - intros r. rewrite <- Hd at 1. apply take_len_app. rewrite Hd. lia.
  - (* [close_fits] accounts for the length of the whole reason; that of the cut one takes no
       more bytes *)
    pose proof (venc_length_mono n (zlen reason) ltac:(lia) Hl).
    rewrite zlen_app, Hd. unfold zlen in *. lia.
Qed.

(** Either CLOSE frame: type [ty], codes of [extra] bytes in all, then what [close_tail] describes. *)
Ltac close_case max_len reason ty body extra :=
  destruct (Varint.size (zlen reason)) as [sl|] eqn:Esl; [|discriminate]; wf_fields;
  destruct (close_tail max_len extra reason sl Esl) as (n & -> & Hn & Hrt & Hlen);
    [unfold zlen in *; lia..|];
  eexists; exists n; split; [rewrite !wv_venc by lia; reflexivity|]; split; [exact Hn|]; split;
  [ intros r; norm_app; rewrite try_next_venc by lia;
    change (frame_body ty) with body; unfold body; rt_vars; now rewrite Hrt
  | rewrite (venc_small ty), app_nil_r, !zlen_app in * by lia; change (zlen [ty]) with 1; lia ].

Lemma close_roundtrip withlen max_len f :
  wf_frame f = true -> is_close f = true -> close_fits max_len (DFrame f) = true ->
  exists b n, encode_frame withlen max_len f = Some b /\
    0 <= n <= zlen (close_reason f) /\
    (forall r, try_next (b ++ r) = DOk (truncate_close n f) r) /\
    zlen b <= max_len.
Proof.
  intros Hwf Hc Hfit.
  destruct f; cbn [is_close] in Hc; try discriminate; cbn [wf_frame close_fits] in Hwf, Hfit;
    wf_fields; cbn [encode_frame close_reason truncate_close].
  - rewrite (size_venc code), (size_venc fty) in Hfit |- * by assumption.
    close_case max_len reason 28 body_close_conn (zlen (venc code) + zlen (venc fty)).
  - rewrite (size_venc code) in Hfit |- * by assumption.
    close_case max_len reason 29 body_close_app (zlen (venc code)).
Qed.

Lemma close_reason_intact max_len extra len sl :
  Varint.size len = Some sl -> 0 <= len -> 0 <= extra -> 0 <= sl ->
  1 + extra + sl + len <= max_len ->
  close_reason_len max_len extra len = Some len.
Proof.
  intros Hs Hl He Hsl Hm. rewrite (close_reason_len_some max_len extra len sl) by (assumption || lia).
  f_equal. lia.
Qed.

Fixpoint blocks_bytes (prev : Z) (rest : list (Z * Z)) : list Z :=
  match rest with
  | [] => []
  | (s, e) :: tl => venc (prev - e - 1) ++ venc (e - s - 1) ++ blocks_bytes s tl
  end.

Lemma enc_blocks_some rest : forall prev,
  wf_desc prev rest = true -> prev <= 2 ^ 62 ->
  enc_blocks prev rest = Some (blocks_bytes prev rest).
Proof.
  induction rest as [|[s e] tl IH]; intros prev Hwf Hp; [reflexivity|].
  cbn [wf_desc] in Hwf. wf_fields. cbn [enc_blocks blocks_bytes].
  rewrite !wv_venc by lia. rewrite IH by (try assumption; lia). cbn [ocat].
  now rewrite app_nil_r.
Qed.

Lemma scan_loop_enc rest : forall prev fuel r,
  wf_desc prev rest = true -> prev <= 2 ^ 62 ->
  (length (blocks_bytes prev rest ++ r) < fuel)%nat ->
  scan_loop fuel (Z.of_nat (length rest)) prev (blocks_bytes prev rest ++ r) = DOk tt r.
Proof.
  induction rest as [|[s e] tl IH]; intros prev fuel r Hwf Hp Hf.
  - destruct fuel; reflexivity.
  - cbn [wf_desc] in Hwf. wf_fields. cbn [blocks_bytes] in *.
    destruct fuel as [|k]; [lia|].
    cbn [scan_loop length]. rewrite Nat2Z.inj_succ.
    destruct (Z.succ (Z.of_nat (length tl)) <=? 0) eqn:En; [lia|].
    norm_app. rewrite get_var_venc by lia. cbn [bind].
    rewrite u64_add_some, u64_sub_some by lia.
    rewrite get_var_venc by lia. cbn [bind]. rewrite u64_sub_some by lia.
    replace (Z.succ (Z.of_nat (length tl)) - 1) with (Z.of_nat (length tl)) by lia.
    replace (prev - (prev - e - 1 + 2) - (e - s - 1)) with s by lia.
    apply IH; [assumption|lia|].
    rewrite <- !app_assoc in Hf. rewrite !app_length in Hf.
    pose proof (venc_length (prev - e - 1) ltac:(lia)).
    pose proof (venc_length (e - s - 1) ltac:(lia)).
    rewrite app_length. lia.
Qed.

Lemma ack_iter_step k largest block B d1 :
  (forall x, get_var (B ++ x) = DOk block x) -> (1 <= length B)%nat -> block <= largest ->
  ack_iter (S k) largest (B ++ d1) =
    match get_var d1 with
    | DOk gap d2 =>
        match u64_add block gap with
        | None => APanic
        | Some bg =>
            match u64_add bg 2 with
            | None => APanic
            | Some bg2 =>
                match u64_sub largest bg2 with
                | None => APanic
                | Some l' =>
                    match ack_iter k l' d2 with
                    | AOk rs => AOk ((largest - block, largest) :: rs)
                    | x => x
                    end
                end
            end
        end
    | _ =>
        match ack_iter k largest (tl d1) with
        | AOk rs => AOk ((largest - block, largest) :: rs)
        | x => x
        end
    end.
Proof.
  intros HB Hl Hle. destruct B as [|b0 t]; [cbn [length] in Hl; lia|].
  cbn [app ack_iter]. change (b0 :: t ++ d1) with ((b0 :: t) ++ d1).
  now rewrite HB, u64_sub_some by exact Hle.
Qed.

Lemma ack_iter_nil k l : ack_iter k l [] = AOk [].
Proof. destruct k; reflexivity. Qed.

Lemma ack_iter_enc rest : forall s e fuel,
  0 <= s < e -> e <= 2 ^ 62 -> wf_desc s rest = true ->
  (length (venc (e - s - 1) ++ blocks_bytes s rest) <= fuel)%nat ->
  ack_iter fuel (e - 1) (venc (e - s - 1) ++ blocks_bytes s rest)
  = AOk (map incl_range ((s, e) :: rest)).
Proof.
  induction rest as [|[s' e'] tl IH]; intros s e fuel Hse He Hwf Hf;
    pose proof (venc_length (e - s - 1) ltac:(lia)) as Hl; rewrite app_length in Hf;
    (destruct fuel as [|k]; [lia|]);
    rewrite (ack_iter_step k (e - 1) (e - s - 1)) by (try (intros x; apply get_var_venc); lia);
    cbn [blocks_bytes map]; unfold incl_range at 1; cbn [fst snd].
  - cbn [get_var Varint.decode tl]. rewrite ack_iter_nil. do 3 f_equal. lia.
  - cbn [wf_desc] in Hwf. wf_fields. cbn [blocks_bytes] in Hf.
    rewrite get_var_venc by lia. rewrite !u64_add_some, u64_sub_some by lia.
    replace (e - 1 - (e - s - 1 + (s - e' - 1) + 2)) with (e' - 1) by lia.
    rewrite IH; [|lia|lia|assumption|].
    + do 3 f_equal. lia.
    + pose proof (venc_length (s - e' - 1) ltac:(lia)).
      rewrite !app_length in Hf. rewrite app_length. lia.
Qed.

Definition ecn_bytes (ecn : option (Z * Z * Z)) : list Z :=
  match ecn with
  | Some (a, b, c) => venc a ++ venc b ++ venc c
  | None => []
  end.

Lemma wf_desc_length rest : forall prev,
  wf_desc prev rest = true -> Z.of_nat (length rest) <= Z.max prev 0.
Proof.
  induction rest as [|[s e] tl IH]; intros prev Hwf; cbn [length]; [lia|].
  cbn [wf_desc] in Hwf. wf_fields. specialize (IH s ltac:(assumption)). lia.
Qed.

Definition ack_tail (ty largest delay : Z) (additional r4 : list Z) : dres frame :=
  if ty =? 3 then
    bind (get_var r4) (fun e0 r5 =>
    bind (get_var r5) (fun e1 r6 =>
    bind (get_var r6) (fun ce r7 =>
      DOk (Ack largest delay additional (Some (e0, e1, ce))) r7)))
  else DOk (Ack largest delay additional None) r4.

Lemma body_ack_tail ty r0 :
  body_ack ty r0 =
  bind (get_var r0) (fun largest r1 =>
  bind (get_var r1) (fun delay r2 =>
  bind (get_var r2) (fun extra r3 =>
  bind (scan_ack_blocks r3 largest extra) (fun _ r4 =>
    ack_tail ty largest delay (firstn (length r3 - length r4) r3) r4)))).
Proof. reflexivity. Qed.

Lemma ecn_tail ecn r largest delay additional :
  wf_ecn ecn = true ->
  ack_tail (match ecn with Some _ => 3 | None => 2 end) largest delay additional
    (ecn_bytes ecn ++ r)
  = DOk (Ack largest delay additional ecn) r.
Proof.
  intros He. destruct ecn as [[[a b] c]|]; cbn [wf_ecn ecn_bytes] in *; [|reflexivity].
  wf_fields. unfold ack_tail. change (3 =? 3) with true. cbv iota. norm_app. rt_vars. reflexivity.
Qed.

Lemma ack_tail_inv ty l d add r4 largest delay additional ecn r :
  ack_tail ty l d add r4 = DOk (Ack largest delay additional ecn) r ->
  largest = l /\ additional = add.
Proof.
  unfold ack_tail. destruct (ty =? 3); [|now intros [= <- _ <- _ _]].
  destruct (get_var r4) as [e0 r5|e|]; cbn [bind]; try discriminate.
  destruct (get_var r5) as [e1 r6|e|]; cbn [bind]; try discriminate.
  destruct (get_var r6) as [ce r7|e|]; cbn [bind]; try discriminate.
  now intros [= <- _ <- _ _].
Qed.

Lemma ack_roundtrip delay rs ecn :
  in62 delay = true -> wf_ranges rs = true -> wf_ecn ecn = true ->
  exists b largest additional,
    encode_ack delay rs ecn = Some b /\
    (exists lo, hd_error (rev rs) = Some (lo, largest + 1)) /\
    (forall r, try_next (b ++ r) = DOk (Ack largest delay additional ecn) r) /\
    ack_ranges largest additional = AOk (map incl_range (rev rs)).
Proof.
  intros Hd Hwf He. unfold wf_ranges in Hwf. unfold encode_ack.
  assert (Hlen : length rs = length (rev rs)) by (now rewrite rev_length).
  destruct (rev rs) as [|[s e] rest] eqn:Er; [discriminate|].
  wf_fields. cbn [length] in Hlen.
  pose proof (wf_desc_length rest s ltac:(assumption)) as Hn.
  set (ty := match ecn with Some _ => 3 | None => 2 end).
  assert (Hty : ty = 2 \/ ty = 3) by (subst ty; destruct ecn; auto).
  exists (venc ty ++ venc (e - 1) ++ venc delay
          ++ venc (Z.of_nat (length rest)) ++ venc (e - s - 1) ++ blocks_bytes s rest
          ++ ecn_bytes ecn ++ []),
    (e - 1), (venc (e - s - 1) ++ blocks_bytes s rest).
  split; [|split; [|split]].
  - rewrite Hlen. replace (Z.of_nat (S (length rest)) - 1) with (Z.of_nat (length rest)) by lia.
    rewrite !wv_venc by lia. rewrite enc_blocks_some by (try assumption; lia).
    assert (Hecn : match ecn with
                   | Some (a, b, c) => ocat [wv a; wv b; wv c]
                   | None => Some []
                   end = Some (ecn_bytes ecn ++ [])).
    { destruct ecn as [[[a b] c]|]; cbn [wf_ecn ecn_bytes] in *; [|reflexivity].
      wf_fields. rewrite !wv_venc by lia. cbn [ocat]. now rewrite <- !app_assoc. }
    rewrite Hecn. cbn [ocat]. rewrite !app_nil_r. reflexivity.
  - exists s. cbn [hd_error]. do 2 f_equal. lia.
  - intros r. norm_app. rewrite try_next_venc by lia.
    assert (Hb : frame_body ty = body_ack ty) by (destruct Hty as [-> | ->]; reflexivity).
    rewrite Hb, body_ack_tail. rt_vars.
    unfold scan_ack_blocks. rt_vars. rewrite u64_sub_some by lia.
    replace (e - 1 - (e - s - 1)) with s by lia.
    rewrite scan_loop_enc by (try assumption; lia). cbn [bind].
    replace (firstn _ _) with (venc (e - s - 1) ++ blocks_bytes s rest).
    2:{ rewrite (app_assoc (venc (e - s - 1))). symmetry. apply firstn_app_exact.
        rewrite !app_length. lia. }
    apply ecn_tail. exact He.
  - unfold ack_ranges. apply ack_iter_enc; try lia; assumption.
Qed.
