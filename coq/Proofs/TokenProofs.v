(** Proofs about Model/Token.v: token payload round trip under an abstract AEAD. *)
From QV Require Import Lib.Tac Lib.Bytes Lib.Corr Model.Token Proofs.BytesProofs.
Open Scope Z_scope.

Lemma dec_ip_enc ip r : wf_ip ip = true -> dec_ip (enc_ip ip ++ r) = Some (ip, r).
Proof.
  intros H. destruct ip as [b|b]; cbn [wf_ip enc_ip app dec_ip] in *;
    apply andb_true_iff in H as [Hl _]; apply Nat.eqb_eq in Hl;
    unfold take; rewrite (split_app _ b r Hl); reflexivity.
Qed.

Lemma dec_u_be n v r : 0 <= v < 256 ^ Z.of_nat n -> dec_u n (be_bytes n v ++ r) = Some (v, r).
Proof.
  intros Hv. unfold dec_u, take. rewrite (split_app n) by apply be_bytes_length.
  now rewrite be_val_small.
Qed.

Lemma dec_cid_enc c r : zlen c <= MAX_CID -> dec_cid (zlen c :: c ++ r) = Some (c, r).
Proof.
  intros Hc. cbn [dec_cid]. destruct (MAX_CID <? zlen c) eqn:E; [lia|].
  rewrite to_nat_zlen. now apply split_app.
Qed.

Lemma dec_payload_enc p : wf_payload p = true -> dec_payload (enc_payload p) = Some (Some p).
Proof.
  intros Hwf. destruct p as [ip port cid secs|ip secs]; cbn [wf_payload enc_payload] in *; andb_hyps.
  - cbn [app dec_payload]. rewrite <- ?app_assoc.
    rewrite dec_ip_enc by assumption.
    rewrite dec_u_be by (change (256 ^ Z.of_nat 2) with (2 ^ 16); lia).
    rewrite dec_cid_enc by lia.
    rewrite <- (app_nil_r (be_bytes 8 secs)).
    rewrite dec_u_be by (change (256 ^ Z.of_nat 8) with (2 ^ 64); unfold I64_MAX in *; lia).
    destruct (I64_MAX <? secs) eqn:E; [lia|]. reflexivity.
  - cbn [app dec_payload]. rewrite <- (app_nil_r (be_bytes 8 secs)). rewrite <- ?app_assoc.
    rewrite dec_ip_enc by assumption.
    rewrite dec_u_be by (change (256 ^ Z.of_nat 8) with (2 ^ 64); unfold I64_MAX in *; lia).
    destruct (I64_MAX <? secs) eqn:E; [lia|]. reflexivity.
Qed.

Section Roundtrip.
Variable seal : list Z -> list Z -> list Z.
Variable open : list Z -> list Z -> option (list Z).
(** The only property of the AEAD that the codec relies on. *)
Hypothesis open_seal : forall n x, open n (seal n x) = Some x.

Theorem token_roundtrip t :
  wf_token t = true -> decode open (encode seal t) = Some (Some t).
Proof.
  intros Hwf. unfold wf_token in Hwf. andb_hyps.
  match goal with H : Nat.eqb _ _ = true |- _ => apply Nat.eqb_eq in H; rename H into Hn end.
  unfold decode, encode. rewrite app_length, Hn.
  replace (Nat.ltb (length (seal (nonce t) (enc_payload (body t))) + 16) 16) with false by lia.
  replace (length (seal (nonce t) (enc_payload (body t))) + 16 - 16)%nat
    with (length (seal (nonce t) (enc_payload (body t)))) by lia.
  rewrite firstn_app_exact, skipn_app_exact by reflexivity.
  rewrite open_seal, dec_payload_enc by assumption.
  destruct t; reflexivity.
Qed.
End Roundtrip.

(** The toy AEAD used for the correspondence satisfies the hypothesis. *)
Lemma toy_open_seal n x : toy_open n (toy_seal n x) = Some x.
Proof.
  unfold toy_open, toy_seal. rewrite app_length, rev_length.
  replace (Nat.ltb (length x + length n) (length n)) with false by lia.
  replace (length x + length n - length n)%nat with (length x) by lia.
  rewrite skipn_app_exact, firstn_app_exact by reflexivity. now rewrite lz_eqb_refl.
Qed.
