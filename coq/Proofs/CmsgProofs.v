(** Proofs about Model/Cmsg.v: the control buffer budget over the whole (finite) option space and
    the decode-after-encode law of the receive path. *)
From QV Require Import Lib.Tac Lib.Bytes Lib.Corr gen.Constants Model.UdpModel Model.Cmsg Proofs.BytesProofs.
Open Scope Z_scope.

Lemma in_all_bool b : In b all_bool.
Proof. destruct b; cbn; tauto. Qed.

Lemma all_sendopts_complete o : In o all_sendopts.
Proof.
  destruct o as [d e g s i c]. unfold all_sendopts.
  apply in_flat_map. exists d. split; [destruct d; cbn; tauto|].
  apply in_flat_map. exists e. split; [destruct e; cbn; tauto|].
  apply in_flat_map. exists g. split; [apply in_all_bool|].
  apply in_flat_map. exists s. split; [destruct s; cbn; tauto|].
  apply in_flat_map. exists i. split; [apply in_all_bool|].
  apply in_map_iff. exists c. split; [reflexivity|apply in_all_bool].
Qed.

Lemma all_recvopts_complete r : In r all_recvopts.
Proof.
  destruct r as [a b c d]. unfold all_recvopts.
  apply in_flat_map. exists a. split; [apply in_all_bool|].
  apply in_flat_map. exists b. split; [apply in_all_bool|].
  apply in_flat_map. exists c. split; [apply in_all_bool|].
  apply in_map_iff. exists d. split; [reflexivity|apply in_all_bool].
Qed.

(** [Encoder::push] asserts [control_len >= len + space] at every push; the running length is
    monotone, so the assertion never fires iff the total fits. *)
Lemma send_fits_sound L :
  send_fits_all L = true -> forall o, total_space L (send_sizes L o) <= l_buf L.
Proof.
  intros H o. unfold send_fits_all in H. rewrite forallb_forall in H.
  specialize (H o (all_sendopts_complete o)). unfold send_fits in H. lia.
Qed.

Lemma recv_fits_sound L :
  recv_fits_all L = true -> forall r, total_space L (recv_sizes L r) <= l_buf L.
Proof.
  intros H r. unfold recv_fits_all in H. rewrite forallb_forall in H.
  specialize (H r (all_recvopts_complete r)). unfold recv_fits in H. lia.
Qed.

Lemma total_space_app L a b : total_space L (a ++ b) = total_space L a + total_space L b.
Proof. unfold total_space. induction a as [|x a IH]; cbn [app fold_right]; [lia|]. rewrite IH. lia. Qed.

Lemma cmsg_align_ge L n : 0 < l_align L -> n <= cmsg_align L n.
Proof. intro H. unfold cmsg_align. lia. Qed.

Lemma cmsg_space_nonneg L n : 0 < l_align L -> 0 <= l_hdr L -> 0 <= n -> 0 <= cmsg_space L n.
Proof.
  intros Ha Hh Hn. unfold cmsg_space.
  pose proof (cmsg_align_ge L (l_hdr L) Ha). pose proof (cmsg_align_ge L n Ha). lia.
Qed.

Lemma total_space_nonneg L sizes :
  0 < l_align L -> 0 <= l_hdr L -> Forall (fun n => 0 <= n) sizes -> 0 <= total_space L sizes.
Proof.
  intros Ha Hh H. unfold total_space. induction H as [|x l Hx Hl IH]; cbn [fold_right]; [lia|].
  pose proof (cmsg_space_nonneg L x Ha Hh Hx). lia.
Qed.

(** The assertion is evaluated after each push: every prefix has to fit. *)
Lemma prefix_fits L sizes k :
  0 < l_align L -> 0 <= l_hdr L -> Forall (fun n => 0 <= n) sizes ->
  total_space L sizes <= l_buf L -> total_space L (firstn k sizes) <= l_buf L.
Proof.
  intros Ha Hh Hp Hf. rewrite <- (firstn_skipn k sizes) in Hf. rewrite total_space_app in Hf.
  assert (0 <= total_space L (skipn k sizes)).
  { apply total_space_nonneg; try assumption.
    rewrite <- (firstn_skipn k sizes) in Hp. apply Forall_app in Hp. tauto. }
  lia.
Qed.

Lemma send_sizes_nonneg L o :
  0 <= l_tos L -> 0 <= l_int L -> 0 <= l_u16 L -> 0 <= l_pktinfo4 L -> 0 <= l_pktinfo6 L ->
  Forall (fun n => 0 <= n) (send_sizes L o).
Proof.
  intros. unfold send_sizes.
  destruct (is_ipv4 (o_dst o)), (o_einval o), (o_seg o), (o_src o); repeat constructor; assumption.
Qed.

Lemma le_bytes_length n x : length (le_bytes n x) = n.
Proof. unfold le_bytes. rewrite rev_length. apply be_bytes_length. Qed.

Lemma zlen_le_bytes n x : zlen (le_bytes n x) = Z.of_nat n.
Proof. unfold zlen. now rewrite le_bytes_length. Qed.

Lemma le_val_le_bytes n x : le_val (le_bytes n x) = x mod 256 ^ Z.of_nat n.
Proof.
  unfold le_val, le_bytes. rewrite rev_involutive. rewrite be_val_be_bytes. lia.
Qed.

Lemma le_signed_le_bytes n x :
  - (256 ^ Z.of_nat n / 2) <= x < 256 ^ Z.of_nat n / 2 ->
  le_signed (le_bytes n x) = x.
Proof.
  intros Hx. unfold le_signed. rewrite le_val_le_bytes. unfold zlen. rewrite le_bytes_length.
  assert (Hw : 0 < 256 ^ Z.of_nat n) by (apply Z.pow_pos_nonneg; lia).
  assert (He : 256 ^ Z.of_nat n = 2 * (256 ^ Z.of_nat n / 2)).
  { destruct n as [|k]; [lia|]. rewrite Nat2Z.inj_succ, Z.pow_succ_r by lia. lia. }
  set (w := 256 ^ Z.of_nat n) in *.
  destruct (Z.ltb_spec (x mod w) (w / 2)) as [H|H].
  - destruct (Z.le_gt_cases 0 x) as [H0|H0].
    + apply Z.mod_small. lia.
    + exfalso. assert (x mod w = x + w).
      { symmetry. apply (Z.mod_unique x w (-1)); lia. } lia.
  - destruct (Z.le_gt_cases 0 x) as [H0|H0].
    + exfalso. rewrite Z.mod_small in H by lia. lia.
    + assert (x mod w = x + w).
      { symmetry. apply (Z.mod_unique x w (-1)); lia. } lia.
Qed.

(** The messages are written with the payload sizes of Linux ([c_int] and [u32] 4 bytes, [timespec]
    two 8-byte fields); each [change (.. =? l_.. L) with true] below is where these meet the sizes
    of [gen_layout], so a crate compiled with other sizes breaks the proofs here. *)
Section Roundtrip.
Let L := gen_layout.

Ltac decode_open K :=
  unfold decode_one; cbn [c_level c_type c_data];
  match goal with |- context [kind_of ?lv ?ty] => change (kind_of lv ty) with K end;
  cbv iota beta; unfold expect_size; cbn [c_data].

Lemma decode_tclass m tos : 0 <= tos < 256 ->
  decode_one L m {| c_level := UDP_IPPROTO_IPV6; c_type := UDP_IPV6_TCLASS; c_data := le_bytes 4 tos |}
  = Some (set_ecn m tos).
Proof.
  intro H. decode_open KTclass. rewrite zlen_le_bytes.
  change (Z.of_nat 4 =? l_int L) with true. cbv iota.
  rewrite le_val_le_bytes. change (256 ^ Z.of_nat 4) with 4294967296.
  f_equal. f_equal. lia.
Qed.

Lemma decode_gro m g : 0 <= g < 2 ^ 31 ->
  decode_one L m {| c_level := UDP_SOL_UDP; c_type := UDP_UDP_GRO; c_data := le_bytes 4 g |}
  = Some (set_stride m g).
Proof.
  intro H. decode_open KGro. rewrite zlen_le_bytes.
  change (Z.of_nat 4 =? l_int L) with true. cbv iota.
  rewrite le_signed_le_bytes; [|change (256 ^ Z.of_nat 4) with 4294967296; lia].
  cbv zeta. destruct (Z.ltb_spec g 0); [lia|reflexivity].
Qed.

Lemma decode_ts m s n : 0 <= s < 2 ^ 63 -> 0 <= n < 10 ^ 9 ->
  decode_one L m {| c_level := UDP_SOL_SOCKET; c_type := UDP_SCM_TIMESTAMPNS;
                    c_data := le_bytes 8 s ++ le_bytes 8 n |}
  = Some (set_ts m s n).
Proof.
  intros Hs Hn. decode_open KTs. rewrite zlen_app, !zlen_le_bytes.
  change (Z.of_nat 8 + Z.of_nat 8 =? l_timespec L) with true. cbv iota.
  rewrite firstn_app_exact by apply le_bytes_length.
  rewrite skipn_app_exact by apply le_bytes_length.
  change (10 ^ 9) with 1000000000 in *. change (2 ^ 63) with 9223372036854775808 in *.
  rewrite !le_signed_le_bytes;
    try (change (256 ^ Z.of_nat 8) with 18446744073709551616; lia); try lia.
  cbv zeta.
  destruct (Z.ltb_spec s 0); [lia|].
  change (2 ^ 32) with 4294967296.
  destruct (Z.leb_spec 0 n); [|lia]. destruct (Z.ltb_spec n 4294967296); [|lia].
  cbn [andb]. f_equal. unfold set_ts. f_equal. f_equal; f_equal.
  - rewrite Z.div_small by lia. lia.
  - apply Z.mod_small. lia.
Qed.

(** [in_pktinfo] is interface index, [ipi_spec_dst], [ipi_addr]: the model puts the destination in
    both address fields (they agree for unicast) and [decode] reads [ipi_addr], at offset 8. *)
Lemma decode_pktinfo4 m ifx a : 0 <= ifx < 2 ^ 32 -> length a = 4%nat ->
  decode_one L m {| c_level := UDP_IPPROTO_IP; c_type := UDP_IP_PKTINFO;
                    c_data := le_bytes 4 ifx ++ a ++ a |}
  = Some (set_dst m (IpV4 a) ifx).
Proof.
  intros Hi Ha. decode_open KPkt4. rewrite !zlen_app, zlen_le_bytes. unfold zlen. rewrite Ha.
  change (Z.of_nat 4 + (Z.of_nat 4 + Z.of_nat 4) =? l_pktinfo4 L) with true. cbv iota.
  rewrite firstn_app_exact by apply le_bytes_length.
  rewrite app_assoc. rewrite skipn_app_exact by (rewrite app_length, le_bytes_length; lia).
  rewrite firstn_all2 by lia.
  rewrite le_val_le_bytes. change (256 ^ Z.of_nat 4) with 4294967296.
  change (2 ^ 32) with 4294967296 in Hi. rewrite Z.mod_small by lia. reflexivity.
Qed.

Lemma decode_pktinfo6 m ifx a : 0 <= ifx < 2 ^ 32 -> length a = 16%nat ->
  decode_one L m {| c_level := UDP_IPPROTO_IPV6; c_type := UDP_IPV6_PKTINFO;
                    c_data := a ++ le_bytes 4 ifx |}
  = Some (set_dst m (IpV6 a) ifx).
Proof.
  intros Hi Ha. decode_open KPkt6. rewrite !zlen_app, zlen_le_bytes. unfold zlen. rewrite Ha.
  change (Z.of_nat 16 + Z.of_nat 4 =? l_pktinfo6 L) with true. cbv iota.
  rewrite firstn_app_exact by exact Ha.
  rewrite skipn_app_exact by exact Ha.
  rewrite firstn_all2 by (rewrite le_bytes_length; lia).
  rewrite le_val_le_bytes. change (256 ^ Z.of_nat 4) with 4294967296.
  change (2 ^ 32) with 4294967296 in Hi. rewrite Z.mod_small by lia. reflexivity.
Qed.

Definition expected_meta (len : Z) (ts : option (Z * Z)) (gro : option Z) (dst : ipaddr) (ifx tos : Z) : meta :=
  {| m_ecn_bits := tos; m_dst := Some dst; m_ifx := Some ifx;
     m_stride := match gro with Some g => g | None => len end; m_ts := ts |}.

Definition addr_ok (dst : ipaddr) : Prop :=
  match dst with IpV4 a => length a = 4%nat | IpV6 a => length a = 16%nat end.

Lemma decode_all_app m a b :
  decode_all L m (a ++ b) =
  match decode_all L m a with Some m' => decode_all L m' b | None => None end.
Proof.
  revert m; induction a as [|c a IH]; intro m; cbn [app decode_all]; [reflexivity|].
  destruct (decode_one L m c); [apply IH|reflexivity].
Qed.

(** What the kernel attaches is what [decode_recv] reports: timestamp, GRO stride, destination
    address with interface index, ECN bits; for IPv4 on an IPv4 socket, IPv6 on an IPv6 socket and
    IPv4 on a dual-stack socket (mapped destination), with or without timestamp or coalescing. *)
Lemma cmsg_roundtrip len ts gro dst ifx pkt4 tos :
  match ts with Some (s, n) => 0 <= s < 2 ^ 63 /\ 0 <= n < 10 ^ 9 | None => True end ->
  match gro with Some g => 0 <= g < 2 ^ 31 | None => True end ->
  addr_ok dst -> 0 <= ifx < 2 ^ 32 -> 0 <= tos < 256 ->
  decode_all L (init_meta len) (kernel_cmsgs L ts gro dst ifx pkt4 tos)
  = Some (expected_meta len ts gro dst ifx tos).
Proof.
  intros Hts Hgro Hdst Hifx Htos. unfold kernel_cmsgs.
  assert (Ets : forall m, decode_all L m
            match ts with
            | Some (s, n) => [{| c_level := UDP_SOL_SOCKET; c_type := UDP_SCM_TIMESTAMPNS;
                                 c_data := le_bytes 8 s ++ le_bytes 8 n |}]
            | None => []
            end = Some (match ts with Some (s, n) => set_ts m s n | None => m end)).
  { intros m. destruct ts as [[s n]|]; [|reflexivity]. cbn [decode_all].
    now rewrite decode_ts by apply Hts. }
  assert (Egro : forall m, decode_all L m
            match gro with
            | Some g => [{| c_level := UDP_SOL_UDP; c_type := UDP_UDP_GRO; c_data := le_bytes 4 g |}]
            | None => []
            end = Some (match gro with Some g => set_stride m g | None => m end)).
  { intros m. destruct gro as [g|]; [|reflexivity]. cbn [decode_all].
    now rewrite decode_gro by exact Hgro. }
  rewrite decode_all_app, Ets. cbv iota beta. rewrite decode_all_app, Egro. cbv iota beta.
  cbn [app decode_all].
  assert (Edst : forall m, decode_one L m
            match dst with
            | IpV4 a => {| c_level := UDP_IPPROTO_IP; c_type := UDP_IP_PKTINFO;
                           c_data := le_bytes 4 ifx ++ a ++ a |}
            | IpV6 a => {| c_level := UDP_IPPROTO_IPV6; c_type := UDP_IPV6_PKTINFO;
                           c_data := a ++ le_bytes 4 ifx |}
            end = Some (set_dst m dst ifx)).
  { intros m. destruct dst as [a|a]; [apply decode_pktinfo4|apply decode_pktinfo6]; assumption. }
  rewrite Edst.
  assert (Etos : forall m, decode_one L m
            (if pkt4
             then {| c_level := UDP_IPPROTO_IP; c_type := UDP_IP_TOS; c_data := [tos] |}
             else {| c_level := UDP_IPPROTO_IPV6; c_type := UDP_IPV6_TCLASS;
                     c_data := le_bytes 4 tos |}) = Some (set_ecn m tos)).
  { intros m. destruct pkt4; [reflexivity|now apply decode_tclass]. }
  rewrite Etos.
  destruct ts as [[s n]|], gro; reflexivity.
Qed.
End Roundtrip.

(** The ECN bits reported are the two low bits of what was decoded. *)
Lemma ecn_bits_roundtrip e : ecn_of_bits (ecn_bits e) = e.
Proof. destruct e; reflexivity. Qed.

Definition src_ok (src : option (list Z)) : Prop :=
  match src with None => True | Some a => length a = 4%nat \/ length a = 16%nat end.

(** [o_ecn] and [o_encsrc] do not enter [send_sizes]: any value would do. *)
Definition opt_of (dst : dstk) (seg : option Z) (src : option (list Z)) (einval : bool) : sendopt :=
  {| o_dst := dst; o_ecn := ENone; o_seg := match seg with Some _ => true | None => false end;
     o_src := match src with None => SNone | Some a => if Nat.eqb (length a) 4 then SV4 else SV6 end;
     o_einval := einval; o_encsrc := true |}.

(** [prepare_cmsgs] (the model the correspondence runs) pushes exactly the payload sizes of its
    option combination, hence fits whenever the combination does. *)
Lemma prepare_cmsgs_sizes dst ecn seg src einval :
  src_ok src ->
  map (fun c => zlen (c_data c)) (prepare_cmsgs gen_layout dst ecn seg src einval)
  = send_sizes gen_layout (opt_of dst seg src einval).
Proof.
  intro Hs. unfold prepare_cmsgs, send_sizes, opt_of. cbn [o_dst o_seg o_src o_einval].
  rewrite !map_app. f_equal; [|f_equal].
  - destruct (is_ipv4 dst); [destruct einval|]; cbn [map c_data]; rewrite ?zlen_le_bytes; reflexivity.
  - destruct seg; cbn [map c_data]; rewrite ?zlen_le_bytes; reflexivity.
  - destruct src as [a|]; [|reflexivity]. cbn [src_ok] in Hs.
    destruct (Nat.eqb (length a) 4) eqn:E; cbn [map c_data]; rewrite !zlen_app, zlen_le_bytes.
    + apply Nat.eqb_eq in E. unfold zlen. rewrite E. reflexivity.
    + apply Nat.eqb_neq in E. destruct Hs as [H|H]; [congruence|]. unfold zlen. rewrite H. reflexivity.
Qed.

Lemma prepare_cmsgs_fits dst ecn seg src einval :
  send_fits_all gen_layout = true -> src_ok src ->
  cmsgs_space gen_layout (prepare_cmsgs gen_layout dst ecn seg src einval) <= l_buf gen_layout.
Proof.
  intros Hf Hs. unfold cmsgs_space. rewrite prepare_cmsgs_sizes by exact Hs.
  apply send_fits_sound. exact Hf.
Qed.
