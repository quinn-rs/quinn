(** The receive-accounting invariant of Model/FlowRecv.v and its preservation by every op (C06). *)
From QV Require Import Lib.Tac Lib.Corr Model.FlowRecv Proofs.FlowRecvProofs Proofs.AsmInv.
Open Scope Z_scope.

Definition slot_end (t : rslot) : Z := match t with SOpen r => eff_end r | _ => 0 end.
Fixpoint sum_ends (m : list (Z * rslot)) : Z :=
  match m with [] => 0 | (_, t) :: r => slot_end t + sum_ends r end.

Definition recv_ok (r : recv) : Prop :=
  0 <= r_end r /\ asm_ok (r_asm r) (r_end r) /\
  match r_state r with
  | RRecv None => r_end r <= r_sent_msd r
  | RRecv (Some f) => r_end r <= f /\ f <= r_sent_msd r
  | RReset f _ => r_end r <= f /\ f <= r_sent_msd r
  end.
Definition slot_ok (t : rslot) : Prop := match t with SOpen r => recv_ok r | _ => True end.
Definition slots_ok (m : list (Z * rslot)) : Prop := Forall (fun p => slot_ok (snd p)) m.

Record Inv (s : st) : Prop := mkInv {
  i_lmax : local_max s <= U64MAX;
  i_recvd : data_recvd s <= local_max s;
  i_sum : data_recvd s = g_closed s + sum_ends (recvm s);
  i_slots : slots_ok (recvm s);
  i_swin : 0 <= swin s }.

Lemma sum_aset k t' m :
  sum_ends (aset k t' m) =
    sum_ends m - match alookup k m with Some t => slot_end t | None => 0 end + slot_end t'.
Proof.
  induction m as [|[k' v] r IH]; cbn [alookup aset sum_ends]; [lia|].
  destruct (k =? k'); cbn [sum_ends]; lia.
Qed.
Lemma sum_aremove k t m :
  alookup k m = Some t -> sum_ends (aremove k m) = sum_ends m - slot_end t.
Proof.
  induction m as [|[k' v] r IH]; cbn [alookup aremove sum_ends]; [discriminate|].
  destruct (k =? k') eqn:E; intro H.
  - inversion H; subst. lia.
  - cbn [sum_ends]. rewrite (IH H). lia.
Qed.
Lemma ok_aset k t' m : slots_ok m -> slot_ok t' -> slots_ok (aset k t' m).
Proof.
  unfold slots_ok. induction m as [|[k' v] r IH]; cbn [aset]; intros H Ht.
  - constructor; [exact Ht|constructor].
  - inversion H; subst. destruct (k =? k').
    + constructor; assumption.
    + constructor; [assumption|apply IH; assumption].
Qed.
Lemma ok_aremove k m : slots_ok m -> slots_ok (aremove k m).
Proof.
  unfold slots_ok. induction m as [|[k' v] r IH]; cbn [aremove]; intros H; [constructor|].
  inversion H; subst. destruct (k =? k'); [assumption|constructor; [assumption|apply IH; assumption]].
Qed.
Lemma ok_lookup k t m : slots_ok m -> alookup k m = Some t -> slot_ok t.
Proof.
  unfold slots_ok. induction m as [|[k' v] r IH]; cbn [alookup]; intros H L; [discriminate|].
  inversion H; subst. destruct (k =? k'); [inversion L; subst; assumption|apply IH; assumption].
Qed.
Lemma recv_new_ok w : 0 <= w -> recv_ok (recv_new w).
Proof.
  intro H. unfold recv_ok, recv_new; cbn [r_end r_asm r_state r_sent_msd].
  split; [lia|]. split; [apply asm_new_ok; lia|lia].
Qed.

Lemma view_ok s t : 0 <= swin s -> slot_ok t -> recv_ok (rview s t).
Proof. intros Hw H. destruct t; cbn [rview]; try (apply recv_new_ok; assumption). exact H. Qed.
Lemma view_end s t : slot_end (SOpen (rview s t)) = slot_end t.
Proof. destruct t; reflexivity. Qed.

(** [Inv] with [data_recvd] lagging [d] behind the sum of ends: [received_reset] sets the slot's
    final size first and [data_recvd] last, through three states with [d = final - end]. *)
Record InvD (d : Z) (s : st) : Prop := mkInvD {
  d_lmax : local_max s <= U64MAX;
  d_recvd : data_recvd s + d <= local_max s;
  d_sum : data_recvd s + d = g_closed s + sum_ends (recvm s);
  d_slots : slots_ok (recvm s);
  d_swin : 0 <= swin s }.

Lemma Inv_D s : Inv s <-> InvD 0 s.
Proof. split; intros [H1 H2 H3 H4 H5]; constructor; try assumption; lia. Qed.

Definition acct (s : st) := (data_recvd s, local_max s, g_closed s, swin s, recvm s).

Lemma InvD_eq d s s' : InvD d s -> acct s' = acct s -> InvD d s'.
Proof.
  intros [I1 I2 I3 I4 I5] A. injection A as A1 A2 A3 A4 R.
  constructor; rewrite ?A1, ?A2, ?A3, ?A4, ?R; assumption.
Qed.

Lemma InvD_idle d id t s :
  InvD d s -> alookup id (recvm s) = None -> t = SNone \/ t = SFree ->
  InvD d (set_recvm (aset id t (recvm s)) s).
Proof.
  intros [I1 I2 I3 I4 I5] L Ht. constructor; prj; try assumption.
  - rewrite sum_aset, L. destruct Ht as [->| ->]; cbn [slot_end]; lia.
  - apply ok_aset; [assumption|]. destruct Ht as [->| ->]; exact I.
Qed.

Lemma InvD_frame d :
  (forall remote id s, InvD d s -> InvD d (insert_stream remote id s)) /\
  (forall n dir from s, InvD d s -> InvD d (insert_remote_range n dir from s)) /\
  (forall id half s, InvD d s -> InvD d (stream_freed id half s)).
Proof.
  (* of the seven kinds of step only the new idle slot touches [acct] *)
  apply frame_pres; intros; try (eapply InvD_eq; [eassumption|reflexivity]).
  eapply InvD_idle; eassumption.
Qed.
Definition insert_stream_InvD d := proj1 (InvD_frame d).
Definition insert_remote_range_InvD d := proj1 (proj2 (InvD_frame d)).
Definition stream_freed_InvD d := proj2 (proj2 (InvD_frame d)).

(** Closing a stream: the entry leaves the map and its end moves to the ghost sum. *)
Lemma InvD_close d id t s :
  InvD d s -> alookup id (recvm s) = Some t ->
  InvD d (stream_recv_freed id (slot_end t) (set_recvm (aremove id (recvm s)) s)).
Proof.
  intros [I1 I2 I3 I4 I5] L. apply stream_freed_InvD.
  constructor; prj; try assumption.
  - rewrite (sum_aremove _ _ _ L). lia.
  - apply ok_aremove; assumption.
Qed.

(** Replacing a slot moves the lag by the difference of the ends. *)
Lemma InvD_slot d d' id t t' s :
  InvD d s -> alookup id (recvm s) = Some t -> slot_ok t' ->
  d' = d + (slot_end t' - slot_end t) -> data_recvd s + d' <= local_max s ->
  InvD d' (set_recvm (aset id t' (recvm s)) s).
Proof.
  intros [I1 I2 I3 I4 I5] L Ht -> Hb. constructor; prj; try assumption.
  - rewrite sum_aset, L. lia.
  - apply ok_aset; assumption.
Qed.

Lemma InvD_slot0 d id t t' s :
  InvD d s -> alookup id (recvm s) = Some t -> slot_ok t' -> slot_end t' = slot_end t ->
  InvD d (set_recvm (aset id t' (recvm s)) s).
Proof. intros I L K E. apply (InvD_slot d d id t t' s I L K); [lia|apply I]. Qed.

Lemma InvD_recvd d d' v s : InvD d s -> v = data_recvd s + (d - d') -> InvD d' (set_data_recvd v s).
Proof. intros [I1 I2 I3 I4 I5] ->. constructor; prj; try assumption; lia. Qed.

Lemma InvD_view d id t s :
  InvD d s -> alookup id (recvm s) = Some t ->
  InvD d (set_recvm (aset id (SOpen (rview s t)) (recvm s)) s) /\ recv_ok (rview s t) /\
  alookup id (aset id (SOpen (rview s t)) (recvm s)) = Some (SOpen (rview s t)).
Proof.
  intros I L.
  assert (K : recv_ok (rview s t)).
  { apply view_ok; [apply I|]. eapply ok_lookup; [apply I|exact L]. }
  split; [|split; [exact K|apply look_aset_same]].
  apply (InvD_slot0 d id t (SOpen (rview s t)) s I L K), view_end.
Qed.

Lemma add_read_credits_InvD d c s s' t : add_read_credits c s = (s', t) -> InvD d s -> InvD d s'.
Proof.
  intros A [I1 I2 I3 I4 I5]. apply (f_equal fst) in A. cbn [fst] in A. subst s'.
  unfold add_read_credits. prj.
  destruct (debt s <? c) eqn:E; prj.
  - assert (Hm : local_max s <= sat_add (local_max s) (c - debt s) <= U64MAX)
      by (unfold sat_add; lia).
    destruct (VARINT_MAX <? sat_add (local_max s) (c - debt s)); cbn [fst];
      [|destruct (sat_add (local_max s) (c - debt s) <? sent_max_data s)];
      constructor; prj; try assumption; lia.
  - destruct (VARINT_MAX <? local_max s); cbn [fst];
      [|destruct (local_max s <? sent_max_data s)]; constructor; prj; assumption.
Qed.

Lemma ingest_ok r off len fin received max_data r' nb closed :
  is_receiving r = true -> recv_ok r -> 0 <= off ->
  ingest true r off len fin received max_data = Ok (r', nb, closed) ->
  recv_ok r' /\ eff_end r' = eff_end r + nb /\ 0 <= nb /\ received + nb <= max_data.
Proof.
  intros R (K0 & KA & K) Hoff H. unfold ingest, credit_consumed_by in H. cbv zeta in H.
  destruct (2 ^ 62 <=? off + len); [discriminate|].
  destruct (match final_offset r with Some f => _ | None => _ end) eqn:F; [discriminate|].
  destruct (_ || _) eqn:C in H; [discriminate|].
  inversion H; subst; clear H.
  assert (KA' : asm_ok (if r_stopped r then r_asm r else asm_insert (r_asm r) off len)
                       (Z.max (r_end r) (off + len))).
  { pose proof (asm_ok_mono _ _ (Z.max (r_end r) (off + len)) KA ltac:(lia)) as KA1.
    destruct (r_stopped r); [exact KA1|]. apply asm_insert_ok; [exact KA1|exact Hoff|lia]. }
  (* arithmetic on the guards, by cases on the known size, [fin] and [stopped] *)
  unfold is_receiving in R. unfold final_offset in F. unfold recv_ok, eff_end.
  cbn [r_state r_end r_sent_msd r_stopped r_asm].
  destruct (r_state r) as [[f|]|f c]; try discriminate R;
    destruct fin; destruct (r_stopped r); cbn [andb negb] in *;
    (split; [split; [lia|split; [exact KA'|lia]]|]); repeat split; lia.
Qed.

Lemma reset_ok r code final received max_data r' :
  recv_ok r -> recv_reset r code final received max_data = Ok (r', true) ->
  recv_ok r' /\ eff_end r' = final /\ r_end r' = r_end r /\ r_end r <= final /\
  eff_end r = r_end r /\ received + (final - r_end r) <= max_data /\ bytes_read r' = bytes_read r.
Proof.
  intros (K0 & KA & K) H. unfold recv_reset, credit_consumed_by in H.
  pose proof (asm_clear_ok _ _ K0 KA) as KC.
  destruct (match final_offset r with Some f => _ | None => _ end) eqn:F; [discriminate|].
  destruct (_ || _) eqn:C in H; [discriminate|].
  assert (B : a_read (asm_clear (r_asm r)) = a_read (r_asm r))
    by (unfold asm_clear; destruct (a_mode (r_asm r)); reflexivity).
  unfold final_offset in F. unfold recv_ok, eff_end, bytes_read.
  destruct (r_state r) as [[f|]|f c]; try discriminate H;
    inversion H; subst; clear H; cbn [r_state r_end r_sent_msd r_stopped r_asm];
    (split; [split; [lia|split; [exact KC|lia]]|]); repeat split; lia.
Qed.

Lemma see_InvD id s : InvD 0 s -> InvD 0 (see id s).
Proof. intro I. apply (InvD_eq _ _ _ I); reflexivity. Qed.
Lemma note_tx_InvD r s : InvD 0 s -> InvD 0 (note_tx r s).
Proof.
  intro I. destruct r as [c|[|]]; try exact I. apply (InvD_eq _ _ _ I); reflexivity.
Qed.

Lemma received_InvD id off len fin s :
  InvD 0 s -> 0 <= off -> InvD 0 (fst (received true id off len fin s)).
Proof.
  intros I Hoff. unfold received.
  destruct (validate_receive_id id s); [exact I|].
  destruct (alookup id (recvm s)) as [slot|] eqn:L; [|exact I].
  destruct (InvD_view _ _ _ _ I L) as (I1 & Kr & L1).
  set (r := rview s slot) in *. set (s1 := set_recvm (aset id (SOpen r) (recvm s)) s) in *.
  destruct (negb (is_receiving r)) eqn:R; [exact I1|]. apply negb_false_iff in R.
  destruct (ingest true r off len fin (data_recvd s) (local_max s)) as [c|[[r' nb] closed]] eqn:G;
    [exact I1|].
  destruct (ingest_ok _ _ _ _ _ _ _ _ _ R Kr Hoff G) as (K' & E' & Hnb & Hb).
  set (s2 := set_data_recvd _ _).
  assert (I2 : InvD 0 s2).
  { apply (InvD_recvd nb).
    - apply (InvD_slot 0 nb id (SOpen r) (SOpen r') s1 I1 L1 K'); [cbn [slot_end]; lia|exact Hb].
    - unfold sat_add. subst s1. prj. pose proof (d_lmax _ _ I). lia. }
  destruct (negb (r_stopped r')).
  - apply (InvD_eq _ _ _ I2), on_stream_frame_only; reflexivity.
  - set (s3 := if closed then _ else s2).
    assert (I3 : InvD 0 s3).
    { subst s3. destruct closed; [|exact I2].
      apply (InvD_close 0 id (SOpen r') s2 I2). apply look_aset_same. }
    destruct (add_read_credits nb s3) as [s4 t] eqn:A. exact (add_read_credits_InvD _ _ _ _ _ A I3).
Qed.

Lemma received_reset_InvD id code final s :
  InvD 0 s -> InvD 0 (fst (received_reset true id code final s)).
Proof.
  intros I. unfold received_reset.
  destruct (validate_receive_id id s); [exact I|].
  destruct (alookup id (recvm s)) as [slot|] eqn:L; [|exact I].
  destruct (InvD_view _ _ _ _ I L) as (I1 & Kr & L1).
  set (r := rview s slot) in *. set (s1 := set_recvm (aset id (SOpen r) (recvm s)) s) in *.
  destruct (recv_reset r code final (data_recvd s) (local_max s)) as [c|[r' [|]]] eqn:G;
    [exact I1| |exact I1].
  destruct (reset_ok _ _ _ _ _ _ Kr G) as (K' & E' & Ee & Hle & Er & Hb & Hbr).
  cbn [fst].
  (* from here [data_recvd] lags [final - r_end r] behind *)
  set (s2 := set_recvm (aset id (SOpen r') (recvm s1)) s1).
  assert (I2 : InvD (final - r_end r) s2).
  { apply (InvD_slot 0 _ id (SOpen r) (SOpen r') s1 I1 L1 K'); [cbn [slot_end]; lia|exact Hb]. }
  set (s3 := if r_stopped r' then _ else s2).
  assert (I3 : InvD (final - r_end r) s3).
  { subst s3. destruct (r_stopped r'); [|exact I2].
    pose proof (InvD_close _ id (SOpen r') s2 I2 (look_aset_same _ _ _)) as X.
    cbn [slot_end] in X. rewrite E' in X. exact X. }
  set (s4 := on_stream_frame (negb (r_stopped r')) id s3).
  assert (I4 : InvD (final - r_end r) s4)
    by (apply (InvD_eq _ _ _ I3), on_stream_frame_only; reflexivity).
  set (credited := if true && r_stopped r' then r_end r' else bytes_read r').
  destruct (negb (credited =? final)) eqn:Cr.
  - destruct (add_read_credits _ _) as [s6 t] eqn:A. apply (add_read_credits_InvD _ _ _ _ _ A).
  clear A.
    assert (I5 : InvD 0 (set_data_recvd (sat_add (data_recvd s4) (final - r_end r')) s4)).
    { apply (InvD_recvd _ 0 _ s4 I4). unfold sat_add.
      pose proof (d_lmax _ _ I4). pose proof (d_recvd _ _ I4). lia. }
    destruct (final <? credited); destruct (final <? r_end r');
      apply (InvD_eq _ _ _ I5); reflexivity.
  - (* credited = final: then the end already was the final size and nothing is added *)
    apply negb_false_iff in Cr. apply Z.eqb_eq in Cr.
    assert (Z : final - r_end r = 0).
    { subst credited. cbn [andb] in Cr. destruct (r_stopped r'); [lia|].
      destruct Kr as (Kr0 & KrA & _). pose proof (asm_ok_read _ _ Kr0 KrA) as HB.
      unfold bytes_read in *. lia. }
    rewrite Z in I4. exact I4.
Qed.

Lemma stop_op_InvD id code s : InvD 0 s -> InvD 0 (fst (stop_op true id code s)).
Proof.
  intro I. unfold stop_op.
  destruct (alookup id (recvm s)) as [slot|] eqn:L; [|exact I].
  destruct (InvD_view _ _ _ _ I L) as (I1 & Kr & L1).
  set (r := rview s slot) in *. set (s1 := set_recvm (aset id (SOpen r) (recvm s)) s) in *.
  destruct (r_stopped r); [exact I1|].
  set (r' := mkRecv (r_state r) (asm_clear (r_asm r)) (r_sent_msd r) (r_end r) true).
  assert (K' : recv_ok r').
  { destruct Kr as (Kr0 & KrA & Kr1).
    split; [exact Kr0|]. split; [apply asm_clear_ok; assumption|exact Kr1]. }
  pose proof (InvD_slot0 0 id (SOpen r) (SOpen r') s1 I1 L1 K' eq_refl) as I2.
  (* a panic flag and a queued STOP_SENDING on top of the slot update *)
  set (s2 := set_panic_if _ _). set (s3 := if is_receiving r then _ else s2).
  assert (I3 : InvD 0 s3 /\ alookup id (recvm s3) = Some (SOpen r')).
  { subst s3 s2. destruct (is_receiving r); destruct (r_end r <? bytes_read r);
      (split; [apply (InvD_eq _ _ _ I2); reflexivity|apply look_aset_same]). }
  destruct I3 as [I3 L3].
  set (s4 := if negb (final_unknown r) then _ else s3).
  assert (I4 : InvD 0 s4).
  { subst s4. destruct (negb (final_unknown r)); [|exact I3].
    exact (InvD_close 0 id (SOpen r') s3 I3 L3). }
  destruct (add_read_credits _ s4) as [s5 t] eqn:A.
  pose proof (add_read_credits_InvD _ _ _ _ _ A I4) as I5.
  destruct t; [apply (InvD_eq _ _ _ I5); reflexivity|exact I5].
Qed.

Lemma rreset_op_InvD id s : InvD 0 s -> InvD 0 (fst (rreset_op id s)).
Proof.
  intro I. unfold rreset_op.
  destruct (alookup id (recvm s)) as [[| |r]|] eqn:L; try exact I.
  destruct (r_stopped r); [exact I|].
  destruct (reset_code r); [|exact I].
  pose proof (InvD_close 0 id (SOpen r) s I L) as I1. cbn [slot_end] in I1.
  pose proof (queue_only acct (fun _ _ => eq_refl) (fun _ => eq_refl)
                (stream_recv_freed id (eff_end r) (set_recvm (aremove id (recvm s)) s))) as A.
  destruct (queue_max_stream_id _) as [s2 q]. exact (InvD_eq _ _ _ I1 A).
Qed.

Lemma set_window_op_InvD w s : InvD 0 s -> InvD 0 (fst (set_window_op w s)).
Proof.
  intros [I1 I2 I3 I4 I5]. unfold set_window_op.
  destruct (rwin s <? w) eqn:E; cbn [fst]; constructor; prj; try assumption;
    unfold sat_add; lia.
Qed.

Lemma open_op_InvD d s : InvD 0 s -> InvD 0 (fst (open_op d s)).
Proof.
  intro I. unfold open_op. destruct (pget d (maxl s) <=? pget d (nxt s)); [exact I|]. cbn [fst].
  match goal with |- InvD 0 (set_send_streams _ ?x) => apply (InvD_eq 0 x); [|reflexivity ..] end.
  apply insert_stream_InvD. apply (InvD_eq _ _ _ I); reflexivity.
Qed.

Lemma accept_op_InvD d s : InvD 0 s -> InvD 0 (fst (accept_op d s)).
Proof.
  intro I. unfold accept_op.
  destruct (pget d (next_remote s) =? pget d (next_rep s)); [exact I|].
  destruct (d =? 0); apply (InvD_eq _ _ _ I); reflexivity.
Qed.

Lemma sreset_op_InvD id code s : InvD 0 s -> InvD 0 (fst (sreset_op id code s)).
Proof.
  intro I. unfold sreset_op.
  destruct (alookup id (sendm s)) as [t|]; [|exact I].
  destruct (s_state (sview t) =? 3); apply (InvD_eq _ _ _ I); reflexivity.
Qed.

Lemma reset_acked_op_InvD id s : InvD 0 s -> InvD 0 (fst (reset_acked_op id s)).
Proof.
  intro I. unfold reset_acked_op.
  destruct (alookup id (sendm s)) as [[|sd]|]; try exact I.
  destruct (s_state sd =? 3); [|exact I].
  apply stream_freed_InvD. apply (InvD_eq _ _ _ I); reflexivity.
Qed.

Lemma read_op_InvD id ordered budget s :
  InvD 0 s -> InvD 0 (fst (read_op true id ordered budget s)).
Proof.
  intro I. unfold read_op.
  destruct (alookup id (recvm s)) as [slot|] eqn:L; [|exact I].
  destruct (InvD_view _ _ _ _ I L) as (I1 & Kr & L1).
  set (r := rview s slot) in *. set (s1 := set_recvm (aset id (SOpen r) (recvm s)) s) in *.
  destruct (r_stopped r) eqn:St; [exact I1|].
  destruct (asm_ensure (r_asm r) ordered) as [a1|] eqn:En; [|exact I1].
  destruct Kr as (K0 & KA & K1).
  destruct (asm_ensure_ok _ _ _ _ K0 KA En) as [KA1 _].
  destruct (asm_read a1 budget) as [[a2 total] none] eqn:Rd.
  destruct (asm_read_ok _ _ _ _ _ _ K0 KA1 Rd) as (KA2 & Ht & _).
  match goal with |- context [let '(term, code) := ?e in _] => destruct e as [term code] end.
  set (r2 := mkRecv (r_state r) a2 (r_sent_msd r) (r_end r) false).
  assert (K2 : recv_ok r2) by (split; [exact K0|split; [exact KA2|exact K1]]).
  (* the entry leaves the map iff the stream ended; else [finalize] writes it back, same end *)
  set (s3 := if (term =? 2) || (term =? 3) then _ else s1). set (s3' := set_panic_if _ s3).
  pose proof (queue_only acct (fun _ _ => eq_refl) (fun _ => eq_refl) s3') as A4.
  destruct (queue_max_stream_id s3') as [s4 q]. cbn [fst] in A4.
  assert (A3 : acct s3' = acct s3)
    by (subst s3'; destruct ((term =? 3) && negb (total =? 0)); reflexivity).
  rewrite A3 in A4. clearbody s3'. clear s3' A3.
  set (p5 := if (term =? 2) || (term =? 3) then (s4, false) else _).
  assert (I5 : InvD 0 (fst p5)).
  { subst p5 s3. destruct ((term =? 2) || (term =? 3)).
    - apply (InvD_eq _ _ _ (InvD_close 0 id (SOpen r) s1 I1 L1) A4).
    - pose proof (InvD_eq _ _ _ I1 A4) as I4.
      assert (L4 : alookup id (recvm s4) = Some (SOpen r)) 
        by (change (recvm s4) with (snd (acct s4)); rewrite A4; exact L1).
      assert (U : forall x, InvD 0 x -> recvm x = recvm s4 ->
                    InvD 0 (set_recvm (aset id (SOpen r2) (recvm s4)) x)).
      { intros x Ix Rx. rewrite <- Rx. rewrite <- Rx in L4.
        exact (InvD_slot0 0 id (SOpen r) (SOpen r2) x Ix L4 K2 eq_refl). }
      destruct (max_stream_data r2 (swin s4)) as [[m [|]]|]; cbn [fst].
      + apply U; [apply (InvD_eq _ _ _ I4)|]; reflexivity.
      + apply U; [exact I4|reflexivity].
      + apply (InvD_eq _ _ _ I4); reflexivity. }
  destruct p5 as [s5 t1]. cbn [fst] in I5.
  destruct (add_read_credits total s5) as [s6 t2] eqn:A.
  pose proof (add_read_credits_InvD _ _ _ _ _ A I5) as I6.
  apply (InvD_eq _ _ _ I6); reflexivity.
Qed.

Lemma emit_msd_InvD ids s : InvD 0 s -> InvD 0 (fst (emit_msd ids s)).
Proof.
  apply emit_msd_pres.
  - intros x I. apply (InvD_eq _ _ _ I); reflexivity.
  - intros id r m x I L. apply (InvD_slot0 0 id (SOpen r) _ x I L); [|reflexivity].
    destruct (ok_lookup id (SOpen r) _ (d_slots _ _ I) L) as (K0 & KA & K1).
    split; [exact K0|]. split; [exact KA|]. cbn [r_state r_end r_sent_msd].
    destruct (r_state r) as [[f|]|f c]; lia.
Qed.

Lemma control_op_InvD a b c s : InvD 0 s -> InvD 0 (fst (fst (control_op a b c s))).
Proof.
  intro I. destruct (control_op_only acct a b c s) as (s5 & A5 & A6); [reflexivity ..|].
  exact (InvD_eq _ _ _ (emit_msd_InvD _ s5 (InvD_eq _ _ _ I A5)) A6).
Qed.

Definition op_wf (op : list Z) : Prop :=
  forall id off len fin, op = [1; id; off; len; fin] -> 0 <= off.

Lemma step_core_InvD s op s' o id l :
  InvD 0 s -> op_wf op -> FlowRecv.step_core true s op = Some (s', o, id, l) -> InvD 0 s'.
Proof.
  intros I W.
  exact (step_core_pres (InvD 0) op see_InvD note_tx_InvD
           (fun i off len fin E b x Ix => received_InvD i off len b x Ix (W i off len fin E))
           received_reset_InvD read_op_InvD stop_op_InvD rreset_op_InvD set_window_op_InvD
           control_op_InvD (fun d x _ => open_op_InvD d x) accept_op_InvD sreset_op_InvD
           reset_acked_op_InvD s s' o id l I).
Qed.

Lemma init_Inv sd mru mrb rw srw pmb pmu :
  0 <= rw <= U64MAX -> 0 <= srw -> Inv (init sd mru mrb rw srw pmb pmu).
Proof.
  intros Hr Hs. apply Inv_D. unfold init.
  apply insert_remote_range_InvD, insert_remote_range_InvD.
  constructor; prj; cbn [sum_ends]; try lia; constructor.
Qed.

Lemma run_from_Inv i s : Inv s -> Forall op_wf i -> Inv (fst (run_from (FlowRecv.step true) s i)).
Proof.
  intros I W. apply Inv_D. apply (run_from_pres (InvD 0) op_wf); [|apply Inv_D; exact I|exact W].
  intros x op Ix Wop. unfold FlowRecv.step.
  destruct (FlowRecv.step_core true x op) as [[[[s' o] id] l]|] eqn:H; [|exact Ix].
  exact (step_core_InvD _ _ _ _ _ _ Ix Wop H).
Qed.

Lemma Inv_reads_bounded s : Inv s ->
  Forall (fun p => match snd p with SOpen r => 0 <= bytes_read r <= r_end r | _ => True end) (recvm s).
Proof.
  intros [_ _ _ I4 _]. unfold slots_ok in I4. eapply Forall_impl; [|exact I4].
  intros [k t]. cbn [snd]. destruct t as [| |r]; auto. cbn [slot_ok].
  intros (K0 & KA & _). apply (asm_ok_read _ _ K0 KA).
Qed.

(** Ghost credit ledger: bytes for which connection credit has been issued (only in the unproved
    [C06_*_full]). *)
Definition slot_consumed (t : rslot) : Z :=
  match t with
  | SOpen r => if r_stopped r || negb (is_receiving r) then eff_end r else bytes_read r
  | _ => 0
  end.
Fixpoint sum_consumed_m (m : list (Z * rslot)) : Z :=
  match m with [] => 0 | (_, t) :: r => slot_consumed t + sum_consumed_m r end.
Fixpoint sum_unread (m : list (Z * rslot)) : Z :=
  match m with [] => 0 | (_, t) :: r => (slot_end t - slot_consumed t) + sum_unread r end.
