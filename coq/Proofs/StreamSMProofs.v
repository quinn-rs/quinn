(** C11, single operations: [stop] and [received_reset] return what Model/StreamSpec.v returns on
    [abs_recv]; [ack_finished]. *)
From QV Require Import Lib.Tac Lib.Corr Model.FlowRecv Model.StreamSpec Model.StreamSM
  Proofs.FlowRecvProofs.
Open Scope Z_scope.

(** Abstraction of a receive half: None / Free slots are an idle open half; map absence is
    "terminal or never created" on both sides. *)
Definition abs_phase (r : recv) : rphase :=
  if r_stopped r then PStopped
  else match r_state r with RRecv z => PRecv z | RReset _ c => PReset c end.
Definition abs_slot (s : st) (t : rslot) : rhalf :=
  let r := rview s t in mkRh (abs_phase r) (r_asm r).
Definition abs_recv (s : st) (id : Z) : option rhalf :=
  match alookup id (recvm s) with Some t => Some (abs_slot s t) | None => None end.

(** Once a final size is known from a FIN it equals the high-water mark; used by no lemma. *)
Definition size_is_end (r : recv) : Prop :=
  forall z, r_state r = RRecv (Some z) -> r_end r = z.

Lemma stop_refines s x id code :
  abs_recv s id = alookup id (x_rh x) ->
  snd (stop_op true id code s) = snd (spec_stop id x).
Proof.
  unfold abs_recv, stop_op, spec_stop. intro H.
  destruct (alookup id (recvm s)) as [t|]; rewrite <- H; [|reflexivity].
  unfold abs_slot, abs_phase. cbn [rp rbuf].
  destruct (r_stopped (rview s t)) eqn:St; [reflexivity|].
  destruct (r_state (rview s t)) as [[z|]|z c] eqn:S;
    destruct (add_read_credits _ _) as [s5 tt]; destruct tt; reflexivity.
Qed.

Lemma received_reset_refines s x id :
  abs_recv s id = alookup id (x_rh x) ->
  snd (rreset_op id s) = snd (spec_received_reset id x).
Proof.
  unfold abs_recv, rreset_op, spec_received_reset. intro H.
  destruct (alookup id (recvm s)) as [t|]; rewrite <- H; [|reflexivity].
  unfold abs_slot, abs_phase. cbn [rp rbuf].
  destruct t as [| |r]; cbn [rview recv_new r_stopped r_state]; try reflexivity.
  destruct (r_stopped r); [reflexivity|].
  unfold reset_code.
  destruct (r_state r) as [z|z c]; [reflexivity|].
  destruct (queue_max_stream_id _). reflexivity.
Qed.

Lemma events_stream_freed id half s : events (stream_freed id half s) = events s.
Proof.
  apply (stream_freed_pres (fun x => events x = events s)); intros; assumption || reflexivity.
Qed.

(** Finished is emitted by an acknowledgement only for a finished, never for a reset stream, and
    only when FIN and every byte are acknowledged. *)
Lemma ack_finished id a b fin s :
  events (ack_frame id a b fin s) = events s \/
  exists sd, alookup id (sendm s) = Some (TSome sd) /\
    (s_state sd = 1 \/ s_state sd = 2) /\ (s_state sd = 2 \/ fin = true) /\
    fst (sbuf_ack sd a b) = 0 /\
    events (ack_frame id a b fin s) = events s ++ [[4; id]].
Proof.
  unfold ack_frame.
  destruct (alookup id (sendm s)) as [[|sd]|] eqn:L; try (left; reflexivity).
  destruct (s_state sd =? 3) eqn:E3; [left; reflexivity|].
  destruct (sbuf_ack sd a b) as [un acks] eqn:SB.
  set (st' := if (s_state sd =? 1) && fin then 2 else s_state sd).
  destruct ((st' =? 2) && (un =? 0)) eqn:D.
  - right. exists sd. apply andb_true_iff in D as [D1 D2].
    apply Z.eqb_eq in D1, D2.
    split; [reflexivity|].
    assert (K : (s_state sd = 1 \/ s_state sd = 2) /\ (s_state sd = 2 \/ fin = true)).
    { subst st'. destruct (Z.eqb_spec (s_state sd) 1) as [E1|E1]; destruct fin; cbn [andb] in D1;
        split; auto; lia. }
    destruct K as [K1 K2].
    split; [exact K1|]. split; [exact K2|]. split; [rewrite SB; cbn [fst]; exact D2|].
    prj. rewrite events_stream_freed. reflexivity.
  - left. reflexivity.
Qed.
