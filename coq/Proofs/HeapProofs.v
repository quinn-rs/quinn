(** The binary-heap vector operations of Model/Assembler.v only permute the stored buffers. *)
From QV Require Import Lib.Tac Lib.Bytes Model.Assembler.
From Coq Require Import Permutation.
Open Scope Z_scope.

Lemma set_nth_length i x h : length (set_nth i x h) = length h.
Proof. revert i; induction h as [|a t IH]; intros [|k]; cbn [set_nth length]; auto. Qed.

Lemma hget_set_nth_same i x h : (i < length h)%nat -> hget (set_nth i x h) i = x.
Proof.
  unfold hget. revert i; induction h as [|a t IH]; intros [|k] H; cbn [set_nth nth length] in *; try lia; auto.
  apply IH; lia.
Qed.

Lemma hget_set_nth_other i j x h : i <> j -> hget (set_nth j x h) i = hget h i.
Proof.
  unfold hget. revert i j; induction h as [|a t IH]; intros [|i] [|j] H; cbn [set_nth nth]; auto; try lia.
Qed.

Lemma set_nth_perm i x h : (i < length h)%nat ->
  Permutation (x :: h) (hget h i :: set_nth i x h).
Proof.
  unfold hget. revert i; induction h as [|a t IH]; intros [|k] H; cbn [set_nth nth length] in *; try lia.
  - apply perm_swap.
  - eapply perm_trans; [apply perm_swap|].
    eapply perm_trans; [apply perm_skip, (IH k); lia|]. apply perm_swap.
Qed.

Lemma swap_length h i j : length (swap h i j) = length h.
Proof. unfold swap. now rewrite !set_nth_length. Qed.

Lemma swap_perm h i j : (i < length h)%nat -> (j < length h)%nat -> Permutation (swap h i j) h.
Proof.
  intros Hi Hj. unfold swap.
  pose proof (set_nth_perm j (hget h i) h Hj) as P1.
  assert (Hi' : (i < length (set_nth j (hget h i) h))%nat) by now rewrite set_nth_length.
  pose proof (set_nth_perm i (hget h j) _ Hi') as P2.
  assert (E : hget (set_nth j (hget h i) h) i = hget h i).
  { destruct (Nat.eq_dec i j) as [->|N]; [now apply hget_set_nth_same | now apply hget_set_nth_other]. }
  rewrite E in P2.
  apply Permutation_cons_inv with (a := hget h i).
  eapply perm_trans; [symmetry; exact P2|]. symmetry; exact P1.
Qed.

Lemma sift_up_perm fuel : forall h pos, (pos < length h)%nat -> Permutation (sift_up fuel h pos) h.
Proof.
  induction fuel as [|f IH]; intros h pos Hp; cbn [sift_up]; [reflexivity|].
  destruct pos as [|p]; [reflexivity|].
  destruct (ble _ _); [reflexivity|].
  assert (Hpar : (Nat.div (S p - 1) 2 < length h)%nat) by lia.
  eapply perm_trans; [apply IH; now rewrite swap_length | now apply swap_perm].
Qed.

Lemma sift_up_length fuel : forall h pos, length (sift_up fuel h pos) = length h.
Proof.
  induction fuel as [|f IH]; intros h pos; cbn [sift_up]; [reflexivity|].
  destruct pos as [|p]; [reflexivity|]. destruct (ble _ _); [reflexivity|].
  now rewrite IH, swap_length.
Qed.

Lemma push_perm h x : Permutation (push h x) (x :: h).
Proof.
  unfold push.
  eapply perm_trans; [apply sift_up_perm; rewrite app_length; cbn; lia|].
  symmetry. apply Permutation_cons_append.
Qed.

(** One round of either sift-down loop. *)
Lemma sift_down_step h pos e : (e <= length h)%nat -> (2 * pos + 1 <= e - 2)%nat ->
  let c := greater_child h (2 * pos + 1) in
  (c < e)%nat /\ Permutation (swap h pos c) h.
Proof.
  intros He Hc. unfold greater_child. destruct (ble _ _); (split; [|apply swap_perm]; lia).
Qed.

Lemma sift_down_range_perm fuel : forall h pos e, (e <= length h)%nat -> (pos < e)%nat ->
  Permutation (sift_down_range fuel h pos e) h.
Proof.
  induction fuel as [|f IH]; intros h pos e He Hp; cbn [sift_down_range]; [reflexivity|].
  destruct (Nat.leb (2 * pos + 1) (e - 2)) eqn:E1.
  - apply Nat.leb_le in E1. destruct (sift_down_step h pos e He E1) as [Hc P].
    destruct (ble _ _); [reflexivity|].
    eapply perm_trans; [apply IH; [now rewrite swap_length | exact Hc] | exact P].
  - destruct (Nat.eqb (2 * pos + 1) (e - 1) && blt _ _) eqn:E2; [|reflexivity].
    apply swap_perm; lia.
Qed.

Lemma sift_down_to_bottom_perm fuel : forall h pos e, (e <= length h)%nat -> (pos < e)%nat ->
  Permutation (sift_down_to_bottom fuel h pos e) h.
Proof.
  induction fuel as [|f IH]; intros h pos e He Hp; cbn [sift_down_to_bottom]; [reflexivity|].
  destruct (Nat.leb (2 * pos + 1) (e - 2)) eqn:E1.
  - apply Nat.leb_le in E1. destruct (sift_down_step h pos e He E1) as [Hc P].
    eapply perm_trans; [apply IH; [now rewrite swap_length | exact Hc] | exact P].
  - destruct (Nat.eqb (2 * pos + 1) (e - 1)) eqn:E2; [|apply sift_up_perm; lia].
    eapply perm_trans; [apply sift_up_perm; rewrite swap_length; lia | apply swap_perm; lia].
Qed.

Lemma pop_perm h top h' : pop h = Some (top, h') -> Permutation h (top :: h') /\ top = hget h 0.
Proof.
  unfold pop. destruct (rev h) as [|item rr] eqn:Er; [discriminate|].
  assert (Eh : h = rev rr ++ [item]).
  { rewrite <- (rev_involutive h), Er. reflexivity. }
  destruct (rev rr) as [|t0 rest] eqn:Err.
  - intros [= <- <-]. subst h. split; reflexivity.
  - (* the sifted vector gets a name, so that the injection leaves the call as it is *)
    set (r := sift_down_to_bottom _ _ _ _). intros [= <- <-]. subst h r.
    split; [|reflexivity]. apply (perm_skip t0).
    (* the last element was moved to the root, then sifted down *)
    symmetry.
    eapply perm_trans; [apply sift_down_to_bottom_perm; cbn [set_nth length]; lia|].
    apply Permutation_cons_append.
Qed.

Lemma pop_none h : pop h = None -> h = [].
Proof.
  unfold pop. destruct (rev h) as [|item rr] eqn:Er.
  - intros _. rewrite <- (rev_involutive h), Er. reflexivity.
  - destruct (rev rr); discriminate.
Qed.

Lemma replace_top_perm t r x : Permutation (replace_top (t :: r) x) (x :: r).
Proof. unfold replace_top. cbn [set_nth]. apply sift_down_range_perm; cbn; lia. Qed.

Lemma sort_loop_perm e : forall h, (e <= length h)%nat -> Permutation (sort_loop e h) h.
Proof.
  induction e as [|e' IH]; intros h He; cbn [sort_loop]; [reflexivity|].
  destruct e' as [|e'']; [reflexivity|].
  assert (P : Permutation (sift_down_range (S (S e'')) (swap h 0 (S e'')) 0 (S e'')) h).
  { eapply perm_trans; [apply sift_down_range_perm; rewrite ?swap_length; lia | apply swap_perm; lia]. }
  eapply perm_trans; [apply IH | exact P].
  rewrite (Permutation_length P). lia.
Qed.

Lemma into_sorted_vec_perm h : Permutation (into_sorted_vec h) h.
Proof. apply sort_loop_perm. lia. Qed.

Lemma heap_ops_permute h x :
  Permutation (push h x) (x :: h) /\
  Permutation (into_sorted_vec h) h /\
  (forall top h', pop h = Some (top, h') -> Permutation h (top :: h')).
Proof.
  split; [apply push_perm|]. split; [apply into_sorted_vec_perm|].
  intros top h' H. now apply pop_perm in H.
Qed.
