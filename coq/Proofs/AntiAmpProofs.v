(** amplification_bound: on an unvalidated path the bytes really sent stay below FACTOR x the bytes
    really received plus one datagram; no datagram starts once the budget is exhausted; the
    saturating u64 counters never over-credit. *)
From QV Require Import Lib.Tac Lib.Chk Lib.Corr Proofs.ChkProofs Proofs.RunInduction Model.AntiAmp.
Open Scope Z_scope.

(** Wanted datagram sizes: the first fits the segment size, later ones fit the first
    ([segment_size = buf.len()] after the first datagram). *)
Fixpoint ds_ok (seg : Z) (ds : list Z) (i : Z) : Prop :=
  match ds with
  | [] => True
  | d :: ds' => 0 <= d <= seg /\ ds_ok (if i =? 0 then d else seg) ds' (i + 1)
  end.

(** Histories: receives, queries, probes, batches whose segment size is at most [mtu],
    validation, and fresh paths (the implementation never un-validates a path: migration creates
    a new [PathData] with zeroed counters = op 0); NOT the raw counter writes [2], [3] of the hook. *)
Definition op_wf (mtu : Z) (op : list Z) : Prop :=
  match op with
  | c :: x :: a' =>
      if c =? 1 then 0 <= x
      else if c =? 2 then False
      else if c =? 3 then False
      else if c =? 6 then match a' with _ :: ds => 0 <= x <= mtu /\ ds_ok x ds 0 | [] => True end
      else if c =? 7 then nz x = true
      else True
  | _ => True
  end.

Definition inv (mtu : Z) (s : st) : Prop :=
  0 <= recvd s <= gr s /\ 0 <= sent s /\
  (sent s = gs s \/ (sent s = U64MAX /\ U64MAX <= gs s)) /\
  (validated s = false -> gs s < FACTOR * gr s + mtu).

Lemma fresh_inv mtu v : 0 < mtu -> inv mtu (fresh v).
Proof.
  intro Hm. unfold inv, fresh, FACTOR. cbn [recvd sent gr gs validated]. repeat split; try lia.
Qed.

Lemma blocked_some s b x :
  validated s = false -> blocked s b = Some x ->
  x = (FACTOR * recvd s <? sent s + b) /\ sent s + b <= U64MAX.
Proof.
  intros Hv H. unfold blocked in H. rewrite Hv in H.
  destruct (cmul (recvd s) FACTOR) as [r3|] eqn:E1; cbn [obind] in H; [|discriminate].
  destruct (cadd (sent s) b) as [sb|] eqn:E2; cbn [obind] in H; [|discriminate].
  apply cmul_some in E1 as [-> _]. apply cadd_some in E2 as [-> Hr].
  inversion H. split; [rewrite Z.mul_comm; reflexivity|lia].
Qed.

Lemma blocked_saturated s b : validated s = false -> sent s = U64MAX -> 1 <= b -> blocked s b = None.
Proof.
  intros Hv Hs Hb. destruct (blocked s b) as [x|] eqn:E; [|reflexivity].
  apply (blocked_some s b x Hv) in E as [_ Hle]. lia.
Qed.

Lemma batch_cons_inv s seg max d ds i total r :
  batch s seg max (d :: ds) i total = Some r ->
  r = (i, total) \/
  (blocked s (seg * i + 1) = Some false /\
   batch s (if i =? 0 then d else seg) max ds (i + 1) (total + d) = Some r).
Proof.
  intro H. cbn [batch] in H.
  destruct (max <=? i); [inversion H; left; reflexivity|].
  destruct (cmul seg i) as [a|] eqn:Ea; cbn [obind] in H; [|discriminate].
  destruct (cadd a 1) as [a1|] eqn:Ea1; cbn [obind] in H; [|discriminate].
  destruct (blocked s a1) as [b|] eqn:Eb; cbn [obind] in H; [|discriminate].
  destruct b; [inversion H; left; reflexivity|].
  destruct (cadd total d) as [t1|] eqn:Et; cbn [obind] in H; [|discriminate].
  apply cmul_some in Ea as [-> _]. apply cadd_some in Ea1 as [-> _]. apply cadd_some in Et as [-> _].
  right. split; assumption.
Qed.

(** A batch only adds bytes, and on an unvalidated path one that sends anything ends below the
    bound: before each datagram [sent + seg * i + 1] is within budget, the bytes of the batch so far
    are at most [seg * i], and the datagram adds at most [seg <= mtu]. *)
Lemma batch_bound mtu ds : forall s seg max i total n t,
  0 <= total <= seg * i -> 0 <= seg <= mtu -> ds_ok seg ds i -> inv mtu s ->
  batch s seg max ds i total = Some (n, t) ->
  total <= t /\ (validated s = false -> t = total \/ gs s + t < FACTOR * gr s + mtu).
Proof.
  induction ds as [|d ds IH]; intros s seg max i total n t Ht Hseg Hok Hinv H.
  - inversion H; subst. split; [lia|left; reflexivity].
  - destruct Hok as [Hd Hok].
    apply batch_cons_inv in H as [H|[Hb H]]; [inversion H; subst; split; [lia|left; reflexivity]|].
    assert (total + d <= (if i =? 0 then d else seg) * (i + 1)) as Hnext.
    { destruct (i =? 0) eqn:E0; [assert (i = 0) by lia; subst; lia|nia]. }
    assert (0 <= (if i =? 0 then d else seg) <= mtu) as Hseg' by (destruct (i =? 0); lia).
    destruct (IH s (if i =? 0 then d else seg) max (i + 1) (total + d) n t ltac:(lia) Hseg' Hok Hinv H)
      as [Hle Hbound].
    split; [lia|]. intro Hv. right.
    apply (blocked_some s _ _ Hv) in Hb as [Hb1 Hb2].
    destruct Hinv as (Hr & Hs0 & Hsat & _).
    assert (sent s = gs s) as Hsg by (destruct Hsat as [?|[? ?]]; [assumption|unfold U64MAX in *; lia]).
    destruct (Hbound Hv) as [->|Hlt]; [unfold FACTOR in *; nia|exact Hlt].
Qed.

Lemma batch_zero ds s seg max n t :
  validated s = false -> (FACTOR * recvd s <= sent s \/ sent s = U64MAX) ->
  batch s seg max ds 0 0 = Some (n, t) -> n = 0 /\ t = 0.
Proof.
  intros Hv He H. destruct ds as [|d ds]; [inversion H; split; reflexivity|].
  apply batch_cons_inv in H as [H|[Hb _]]; [inversion H; split; reflexivity|].
  apply (blocked_some s _ _ Hv) in Hb as [Hb1 Hb2]. lia.
Qed.

Lemma send_inv mtu s t :
  inv mtu s -> 0 <= t -> (validated s = false -> gs s + t < FACTOR * gr s + mtu) -> inv mtu (send s t).
Proof.
  intros (Hr & Hs0 & Hsat & Hb) Ht Hnew. unfold inv, send, sat_add. cbn [recvd sent gr gs validated].
  split; [exact Hr|]. split; [unfold U64MAX; lia|]. split; [|exact Hnew].
  destruct Hsat as [Heq|[Heq Hge]]; unfold U64MAX in *; lia.
Qed.

Lemma recv_inv mtu s n : inv mtu s -> 0 <= n -> inv mtu (recv s n).
Proof.
  intros (Hr & Hs0 & Hsat & Hb) Hn. unfold inv, recv, sat_add, FACTOR in *. cbn [recvd sent gr gs validated].
  split; [unfold U64MAX; lia|]. split; [exact Hs0|]. split; [exact Hsat|].
  intro Hv. specialize (Hb Hv). lia.
Qed.

Lemma poll_some s seg max ds s' n t :
  poll s seg max ds = Some (s', n, t) -> batch s seg max ds 0 0 = Some (n, t) /\ s' = send s t.
Proof.
  unfold poll. destruct (batch s seg max ds 0 0) as [[n0 t0]|]; cbn [obind fst snd]; [|discriminate].
  intro H. inversion H. split; reflexivity.
Qed.

Lemma poll_inv mtu s seg max ds s' n t :
  inv mtu s -> 0 <= seg <= mtu -> ds_ok seg ds 0 ->
  poll s seg max ds = Some (s', n, t) -> inv mtu s'.
Proof.
  intros Hinv Hseg Hok H. apply poll_some in H as [Eb ->].
  destruct (batch_bound mtu ds s seg max 0 0 n t ltac:(lia) Hseg Hok Hinv Eb) as [Ht Hbound].
  apply send_inv; [exact Hinv|exact Ht|]. intro Hv. destruct (Hbound Hv) as [->|Hlt]; [|exact Hlt].
  destruct Hinv as (_ & _ & _ & Hb). specialize (Hb Hv). lia.
Qed.

Lemma step_inv mtu s op s' o :
  0 < mtu -> op_wf mtu op -> inv mtu s -> step s op = Some (s', o) -> inv mtu s'.
Proof.
  intros Hm Hwf Hinv H. unfold step in H.
  destruct op as [|c a]; [inversion H; subst; exact Hinv|].
  destruct a as [|x a'].
  { destruct (c =? 5); [|inversion H; subst; exact Hinv].
    destruct (budget s); cbn [obind] in H; [|discriminate]. inversion H; subst; exact Hinv. }
  cbn [op_wf] in Hwf.
  destruct (c =? 0). { inversion H; subst. apply fresh_inv; exact Hm. }
  destruct (c =? 1). { inversion H; subst. apply recv_inv; assumption. }
  destruct (c =? 2); [contradiction|]. destruct (c =? 3); [contradiction|].
  destruct (c =? 4).
  { destruct (blocked s x); cbn [obind] in H; [|discriminate]. inversion H; subst; exact Hinv. }
  destruct (c =? 6).
  { destruct a' as [|max ds]; [inversion H; subst; exact Hinv|]. destruct Hwf as [Hseg Hok].
    destruct (poll s x max ds) as [[[s1 n] t]|] eqn:Ep; cbn [obind] in H; [|discriminate].
    inversion H; subst. eapply poll_inv; eassumption. }
  destruct (c =? 7).
  { inversion H; subst. destruct Hinv as (Hr & Hs0 & Hsat & Hb).
    unfold inv. cbn [recvd sent gr gs validated]. repeat split; try lia; try assumption.
    intro Hv. rewrite Hwf in Hv. discriminate. }
  inversion H; subst; exact Hinv.
Qed.

Lemma steps_cons s op l :
  steps s (op :: l) = match step s op with Some r => steps (fst r) l | None => None end.
Proof. cbn [steps]. destruct (step s op) as [[s1 o]|]; reflexivity. Qed.

Lemma steps_inv mtu l s s' :
  0 < mtu -> Forall (op_wf mtu) l -> inv mtu s -> steps s l = Some s' -> inv mtu s'.
Proof.
  intro Hm. apply (run_invariant step fst steps (fun s => eq_refl) steps_cons).
  intros s0 op Hwf Hi.
  destruct (step s0 op) as [[s1 o]|] eqn:E; [exact (step_inv mtu s0 op s1 o Hm Hwf Hi E)|exact I].
Qed.

Theorem amplification_bound : forall mtu l s,
  0 < mtu -> Forall (op_wf mtu) l -> steps (fresh false) l = Some s ->
  validated s = false -> gs s < FACTOR * gr s + mtu.
Proof.
  intros mtu l s Hm Hwf H Hv.
  destruct (steps_inv mtu l _ _ Hm Hwf (fresh_inv mtu false Hm) H) as (_ & _ & _ & Hb). exact (Hb Hv).
Qed.

Theorem no_datagram_when_exhausted : forall mtu l s seg max ds s' n t,
  0 < mtu -> Forall (op_wf mtu) l -> steps (fresh false) l = Some s ->
  validated s = false -> FACTOR * gr s <= gs s ->
  poll s seg max ds = Some (s', n, t) -> n = 0 /\ t = 0 /\ gs s' = gs s.
Proof.
  intros mtu l s seg max ds s' n t Hm Hwf H Hv He Hp.
  destruct (steps_inv mtu l _ _ Hm Hwf (fresh_inv mtu false Hm) H) as (Hr & Hs0 & Hsat & _).
  apply poll_some in Hp as [Eb ->].
  assert (FACTOR * recvd s <= sent s \/ sent s = U64MAX) as Hex.
  { unfold FACTOR in *. destruct Hsat as [Heq|[Heq Hge]]; [left; lia|right; exact Heq]. }
  destruct (batch_zero ds s seg max n t Hv Hex Eb) as [-> ->].
  unfold send. cbn [gs]. repeat split; lia.
Qed.

(** at u64::MAX the predicate cannot answer "not blocked" ([blocked_saturated]); the bound is about
    the real byte totals, so saturation cannot reset it *)
Theorem counters_saturate_safely : forall mtu l s,
  0 < mtu -> Forall (op_wf mtu) l -> steps (fresh false) l = Some s ->
  0 <= recvd s <= gr s /\ (sent s = gs s \/ (sent s = U64MAX /\ U64MAX <= gs s)) /\
  (validated s = false -> sent s = U64MAX -> forall b, 1 <= b -> blocked s b = None).
Proof.
  intros mtu l s Hm Hwf H.
  destruct (steps_inv mtu l _ _ Hm Hwf (fresh_inv mtu false Hm) H) as (Hr & Hs0 & Hsat & _).
  repeat split; try lia; try assumption. intros Hv Hs b Hb. apply blocked_saturated; assumption.
Qed.

(** for [PathSMProofs.Hist] *)
Lemma steps_snoc : forall h s s1 o,
  steps s h = Some s1 -> steps s (h ++ [o]) = match step s1 o with Some (s2, _) => Some s2 | None => None end.
Proof.
  induction h as [|x h IH]; intros s s1 o H; cbn [steps app] in *.
  - inversion H; subst. destruct (step s1 o) as [[s2 ?]|]; reflexivity.
  - destruct (step s x) as [[s' ?]|]; [|discriminate]. apply IH. exact H.
Qed.

Lemma step_poll a seg max ds r :
  poll a seg max ds = Some r ->
  step a (6 :: seg :: max :: ds) = Some (fst (fst r), [snd (fst r); snd r; sent (fst (fst r))]).
Proof.
  intro H. unfold step. change (6 =? 0) with false. change (6 =? 1) with false. change (6 =? 2) with false.
  change (6 =? 3) with false. change (6 =? 4) with false. change (6 =? 6) with true. cbv iota.
  rewrite H. cbn [obind]. destruct r as [[a' n] t]. reflexivity.
Qed.
