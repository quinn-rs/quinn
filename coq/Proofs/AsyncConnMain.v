(** C18 — [Inv_step], [Inv_run] and the theorems about all reachable states. *)
From QV Require Import Lib.Tac Model.AsyncConn Proofs.AsyncConnInv Proofs.AsyncConnLemmas
  Proofs.AsyncConnHandles Proofs.AsyncConnFacts Proofs.RunInduction.
From Coq Require Import Arith.

Theorem Inv_step : forall s l, label_no_reset_ack l = true -> Inv s -> Inv (step' s l).
Proof.
  intros s l Hok [HI Hd]. constructor; [apply Inv0_step|apply drv_ok_step]; assumption.
Qed.

Lemma Inv_init : Inv init.
Proof.
  constructor; [apply Inv0_init|]. unfold drv_ok; cbn. intros _; split; [left; reflexivity|discriminate].
Qed.

Theorem Inv_run : forall ls, ok ls -> Inv (run ls).
Proof. intros ls Hok. exact (fold_left_inv step' _ Inv Inv_step ls init Hok Inv_init). Qed.

Lemma Inv0_no_lost_wakeup : forall s, Inv0 s -> forall t o,
  pend s t = Some o -> cond s o = true -> runnable s t = true.
Proof.
  intros s HI t o Hp Hc. destruct (inv_wake s HI t o Hp) as [Hr|[_ Hc']]; [exact Hr|congruence].
Qed.
Theorem no_lost_wakeup : forall ls, ok ls -> forall t o,
  pend (run ls) t = Some o -> cond (run ls) o = true -> runnable (run ls) t = true.
Proof. intros ls Hok. apply Inv0_no_lost_wakeup, Inv_run, Hok. Qed.

Theorem driver_no_lost_wakeup : forall ls, ok ls ->
  driver_alive (run ls) = true -> drv_work (run ls) = true -> drv_runnable (run ls) = true.
Proof. intros ls Hok Ha Hw. destruct (inv_drv _ (Inv_run ls Hok) Ha) as [_ H]. exact (H Hw). Qed.

Lemma closed_all_runnable : forall s, Inv0 s -> closed s = true -> forall t o,
  pend s t = Some o -> runnable s t = true.
Proof. intros s HI Hc t o Hp. eapply Inv0_no_lost_wakeup; eauto using cond_closed. Qed.

Theorem close_wakes_everyone : forall ls, ok ls -> forall code t o,
  pend (terminate (run ls) code) t = Some o -> runnable (terminate (run ls) code) t = true.
Proof.
  intros ls Hok code. apply closed_all_runnable; [|apply closed_terminate].
  apply Inv0_terminate. apply Inv_run, Hok.
Qed.
Theorem close_wakes_everyone_AppClose : forall ls, ok ls -> (0 < nhandles (run ls))%Z -> forall t o,
  pend (step' (run ls) AppClose) t = Some o -> runnable (step' (run ls) AppClose) t = true.
Proof.
  intros ls Hok Hn. apply closed_all_runnable.
  - apply Inv_step; [reflexivity|apply Inv_run, Hok].
  - unfold step', step; cbn [fst]. apply Z.ltb_lt in Hn; rewrite Hn. apply closed_close_conn.
Qed.
Lemma closed_drv_poll_lost : forall s code, driver_alive s = true -> closed (drv_poll s [PLost code]) = true.
Proof.
  intros s code Ha. unfold drv_poll. rewrite Ha; cbn [negb fold_left drv_event].
  destruct (drained _); [apply closed_drop_ref|]; reflexivity.
Qed.
Theorem close_wakes_everyone_PLost : forall ls, ok ls -> driver_alive (run ls) = true -> forall code t o,
  pend (step' (run ls) (DrvPoll [PLost code])) t = Some o ->
  runnable (step' (run ls) (DrvPoll [PLost code])) t = true.
Proof.
  intros ls Hok Ha code. apply closed_all_runnable.
  - apply Inv_step; [reflexivity|apply Inv_run, Hok].
  - unfold step', step; cbn [fst]. apply closed_drv_poll_lost, Ha.
Qed.

Theorem cancel_safe_ops_lose_nothing : forall ls, ok ls ->
  (forall k, discarded (run ls) k = false -> arrived (run ls) k = delivered (run ls) k ++ rx (run ls) k) /\
  d_arrived (run ls) = d_delivered (run ls) ++ dq (run ls).
Proof.
  intros ls Hok. pose proof (Inv_run ls Hok) as HI. split; [apply (inv_data _ HI)|apply (inv_dgram _ HI)].
Qed.

Theorem drop_leaves_no_notify_registration : forall ls t, ok ls ->
  forall n, nwait (step' (run ls) (AppDrop t)) n t = false.
Proof.
  intros ls t Hok n.
  assert (HI : Inv (step' (run ls) (AppDrop t))) by (apply Inv_step; [reflexivity|apply Inv_run, Hok]).
  destruct (nwait (step' (run ls) (AppDrop t)) n t) eqn:E; [|reflexivity].
  destruct (inv_nw _ HI _ _ E) as (o & Hp & _).
  unfold step', step in Hp; cbn [fst] in Hp. rewrite pend_release, Nat.eqb_refl in Hp. discriminate.
Qed.

Theorem recv_drop_assert : forall ls k, ok ls -> all_read (run ls) k = true -> aget (br (run ls)) k = None.
Proof.
  intros ls k Hok Har. pose proof (Inv_run ls Hok) as HI.
  destruct (aget (br (run ls)) k) as [t|] eqn:E; [|reflexivity].
  assert (Hne : aget (br (run ls)) k <> None) by (rewrite E; discriminate).
  destruct (inv_br_end _ HI k Hne) as [He _]. rewrite (inv_allread_end _ HI k Har) in He. discriminate.
Qed.

Lemma release_idem : forall s t, release (release s t) t = release s t.
Proof.
  intros s t. unfold release at 1. rewrite pend_release, Nat.eqb_refl. reflexivity.
Qed.
Lemma poll_ok_release : forall s t o n, poll_ok s t o n = true -> poll_ok (release s t) t o n = true.
Proof.
  intros s t o n Hok. unfold release. destruct (pend s t) as [o'|]; [|exact Hok].
  destruct o; cbn [poll_ok] in *; destruct o'; cbn [notify_of]; cbn_st; try exact Hok;
    unfold upd; repeat (apply andb_true_iff in Hok as [Hok ?]); repeat (apply andb_true_iff; split); auto;
    destruct (Nat.eqb_spec s0 s1); auto.
Qed.
Theorem drop_then_fresh_poll_same_result : forall s t o n,
  poll_ok s t o n = true ->
  snd (step (step' s (AppDrop t)) (AppPoll t o n)) = snd (step s (AppPoll t o n)).
Proof.
  intros s t o n Hok. unfold step', step; cbn [fst]. unfold app_poll.
  rewrite (poll_ok_release _ _ _ _ Hok), Hok, release_idem. reflexivity.
Qed.

Theorem refcount_tracks_handles : forall ls, ok ls ->
  (driver_alive (run ls) = true -> refcnt (run ls) = nhandles (run ls)) /\
  (driver_alive (run ls) = false -> refcnt (run ls) = (nhandles (run ls) - 1)%Z).
Proof.
  intros ls Hok. pose proof (Inv_run ls Hok) as HI. split; [apply (inv_ref_alive _ HI)|apply (inv_ref_dead _ HI)].
Qed.

(** the proto connection is only ever closed together with setting the error *)
Definition ic_ok (s : st) : Prop := inner_closed s = true -> closed s = true.

Lemma inner_drop_ref : forall s h, inner_closed (drop_ref s h) = inner_closed s \/ closed (drop_ref s h) = true.
Proof.
  intros s h. apply drop_ref_cases; [left; reflexivity|]. intros _ _. right. apply closed_close_conn.
Qed.

Lemma inner_step : forall s l, inner_closed (step' s l) = inner_closed s \/ closed (step' s l) = true.
Proof.
  intros s. apply (step_cx_rule (fun a => inner_closed a = inner_closed s \/ closed a = true)); auto.
  - intros a b E. rewrite (closed_cx a b E), (ctl_inner a b (cx_ctl a b E)). auto.
  - intros a. rewrite closed_need_driver, need_driver_nf. auto.
  - intros a _. right. apply closed_close_conn.
  - intros a h [H|H]; [|right; apply closed_drop_ref, H]. rewrite <- H. apply inner_drop_ref.
  - intros evs _. unfold drv_poll. destruct (driver_alive s); cbn [negb]; [|left; reflexivity].
    match goal with |- context [drained ?x] => set (s2 := x) end.
    pose proof (ctl_inner _ _ (ctl_drv_events evs _) : inner_closed s2 = inner_closed s) as E2.
    destruct (drained s2); [|left; exact E2]. rewrite <- E2.
    exact (inner_drop_ref (set_drv s2 false false false false) false).
Qed.

Lemma ic_ok_step : forall s l, ic_ok s -> ic_ok (step' s l).
Proof.
  intros s l Hs H'. destruct (inner_step s l) as [E|E]; [|exact E].
  apply closed_is_stable, Hs. rewrite <- E. exact H'.
Qed.
Lemma ic_ok_run : forall ls, ic_ok (run ls).
Proof.
  intros ls. apply (fold_left_pres step' ic_ok ic_ok_step). unfold ic_ok; cbn; discriminate.
Qed.

(** [fetch_sub] returned 1: the last-reference branch runs *)
Lemma drop_ref_last : forall x h, refcnt x = 1%Z -> ic_ok x ->
  closed (drop_ref x h) = true /\ inner_closed (drop_ref x h) = true.
Proof.
  intros x h Hr Hic. unfold drop_ref. rewrite Hr. cbn [Z.ltb Z.compare Pos.compare Pos.compare_cont]. cbn_st.
  destruct (inner_closed x) eqn:Eic.
  - split; [apply Hic|]; exact Eic.
  - split; [apply closed_close_conn|]. rewrite close_conn_nf. reflexivity.
Qed.

Lemma last_handle_refcnt : forall ls, ok ls -> driver_alive (run ls) = true -> nhandles (run ls) = 1%Z ->
  refcnt (run ls) = 1%Z.
Proof. intros ls Hok Ha Hn. rewrite <- Hn. exact (inv_ref_alive _ (Inv_run ls Hok) Ha). Qed.

Theorem last_handle_drop_closes : forall ls, ok ls ->
  driver_alive (run ls) = true -> nhandles (run ls) = 1%Z ->
  closed (step' (run ls) HDropConn) = true /\ inner_closed (step' (run ls) HDropConn) = true.
Proof.
  intros ls Hok Ha Hn. unfold step', step; cbn [fst]. rewrite Hn. cbn [Z.ltb Z.compare Pos.compare].
  apply drop_ref_last; [apply last_handle_refcnt; assumption|apply ic_ok_run].
Qed.

Theorem last_handle_drop_closes_recv : forall ls k, ok ls ->
  driver_alive (run ls) = true -> nhandles (run ls) = 1%Z ->
  recv_h (run ls) k = true -> rborrow (run ls) k = None ->
  closed (step' (run ls) (HDropRecv k)) = true /\ inner_closed (step' (run ls) (HDropRecv k)) = true.
Proof.
  intros ls k Hok Ha Hn Hrh Hrb. pose proof (ic_ok_run ls) as Hic. pose proof (last_handle_refcnt ls Hok Ha Hn) as Hr.
  unfold step', step. rewrite Hrh, Hrb. cbn [fst].
  apply drop_ref_last; destruct (all_read _ k); try assumption; destruct (closed _); try assumption;
    rewrite need_driver_nf; assumption.
Qed.

Theorem last_handle_drop_closes_send : forall ls k, ok ls ->
  driver_alive (run ls) = true -> nhandles (run ls) = 1%Z ->
  send_h (run ls) k = true -> wborrow (run ls) k = None ->
  closed (step' (run ls) (HDropSend k)) = true /\ inner_closed (step' (run ls) (HDropSend k)) = true.
Proof.
  intros ls k Hok Ha Hn Hsh Hwb. pose proof (ic_ok_run ls) as Hic. pose proof (last_handle_refcnt ls Hok Ha Hn) as Hr.
  unfold step', step. rewrite Hsh, Hwb. cbn [fst].
  apply drop_ref_last; destruct (closed _); try assumption; rewrite need_driver_nf; assumption.
Qed.
