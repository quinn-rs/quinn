(** The run inductions: a [fold_left] keeps what every step keeps, and so does a run that stops
    at the first failure ([nxt] projects the next state out of a step's result). *)
From QV Require Import Lib.Tac.

Lemma fold_left_inv {S L} (f : S -> L -> S) (Q : L -> bool) (P : S -> Prop) :
  (forall s l, Q l = true -> P s -> P (f s l)) ->
  forall ls s, forallb Q ls = true -> P s -> P (fold_left f ls s).
Proof.
  intros Hstep; induction ls as [|l ls IH]; intros s Hq Hs; [exact Hs|].
  cbn [forallb] in Hq. apply andb_true_iff in Hq as [Hl Hq]. cbn [fold_left]. auto.
Qed.

Lemma fold_left_pres {S L} (f : S -> L -> S) (P : S -> Prop) :
  (forall s l, P s -> P (f s l)) -> forall ls s, P s -> P (fold_left f ls s).
Proof. intros Hstep; induction ls; cbn [fold_left]; auto. Qed.

Section RunInduction.
  Context {S X R : Type} (step : S -> X -> option R) (nxt : R -> S) (run : S -> list X -> option S).
  Hypothesis run_nil : forall s, run s [] = Some s.
  Hypothesis run_cons : forall s x l,
    run s (x :: l) = match step s x with Some r => run (nxt r) l | None => None end.

  Lemma run_invariant (P : X -> Prop) (Inv : S -> Prop) :
    (forall s x, P x -> Inv s -> match step s x with Some r => Inv (nxt r) | None => True end) ->
    forall l s s', Forall P l -> Inv s -> run s l = Some s' -> Inv s'.
  Proof.
    intros Hstep. induction l as [|x l IH]; intros s s' Hwf Hi H.
    - rewrite run_nil in H. inversion H; subst. exact Hi.
    - inversion Hwf as [|? ? Hx Hl]; subst. rewrite run_cons in H. specialize (Hstep s x Hx Hi).
      destruct (step s x) as [r|]; [exact (IH _ s' Hl Hstep H)|discriminate].
  Qed.
End RunInduction.
