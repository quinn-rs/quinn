(** C18 — the driver's exit on a socket error (fixed finding, /repo commit 914a185). *)
From QV Require Import Lib.Tac Model.AsyncConn Proofs.AsyncConnInv Proofs.AsyncConnLemmas
  Proofs.AsyncConnHandles Proofs.AsyncConnFacts Proofs.AsyncConnMain.
From Coq Require Import Arith.

Theorem io_error_preserves_invariant : forall s, Inv s -> Inv (drv_io_error s).
Proof.
  intros s HI. unfold drv_io_error. destruct (driver_alive s) eqn:Ea; cbn [negb]; [|exact HI].
  constructor.
  - apply Inv0_drop_ref_driver.
    + apply Inv0_terminate. apply HI.
    + exact Ea.
  - apply drv_ok_drop_ref. apply drv_ok_dead. reflexivity.
Qed.

(** every pending operation is runnable afterwards, for all schedules *)
Theorem io_error_wakes_everyone : forall ls, ok ls -> driver_alive (run ls) = true -> forall t o,
  pend (drv_io_error (run ls)) t = Some o -> runnable (drv_io_error (run ls)) t = true.
Proof.
  intros ls Hok Ea t o Hp.
  pose proof (io_error_preserves_invariant _ (Inv_run ls Hok)) as HI.
  eapply closed_all_runnable; [apply HI| |exact Hp].
  unfold drv_io_error. rewrite Ea. cbn [negb]. apply closed_drop_ref. reflexivity.
Qed.

(** before the fix: the driver is gone, the connection is not closed, and nothing will wake
    a blocked reader (a handle is alive, so no implicit close either) *)
Local Open Scope Z_scope.
Theorem io_error_unfixed_refuted : exists ls t o,
  let s := drv_io_error_unfixed (run ls) in
  pend s t = Some o /\ runnable s t = false /\ closed s = false /\ driver_alive s = false /\
  0 < nhandles s.
Proof.
  exists [DrvPoll [PConnected; POpened false 3 [] false]; AppPoll 0 (OAccept false) 0; AppPoll 1 (ORead 3) 10],
         1%nat, (ORead 3).
  vm_compute. repeat split; reflexivity.
Qed.
