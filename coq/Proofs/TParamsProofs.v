(** [read (write p)] = [p] for every valid parameter set, in any write order; [read] on arbitrary
    bytes never runs out of loop fuel. *)
From QV Require Import Lib.Tac Lib.Bytes Lib.Corr Model.Varint Model.TParams Proofs.BytesProofs.
From QV Require Proofs.VarintProofs.
From Coq Require Import Permutation.
Open Scope Z_scope.

(** Model/TParams.v has its own [venc] and [get_var] (result type [pres]). *)
Lemma tp_get_var_venc x r : 0 <= x < 2 ^ 62 -> get_var (venc x ++ r) = POk x r.
Proof.
  intros Hx. unfold get_var. now rewrite VarintProofs.decode_venc.
Qed.

Lemma tp_venc_length x : 0 <= x < 2 ^ 62 -> (1 <= length (venc x) <= 8)%nat.
Proof. exact (VarintProofs.venc_length x). Qed.

Lemma vsize_venc x : 0 <= x < 2 ^ 62 -> vsize x = zlen (venc x).
Proof. intros Hx. unfold vsize. now rewrite VarintProofs.size_venc. Qed.

Lemma take_app a b : take (length a) (a ++ b) = Some (a, b).
Proof. exact (split_app (length a) a b eq_refl). Qed.

Lemma read_loop_tlv f s id v rest :
  0 <= id < 2 ^ 62 -> 0 <= zlen v < 2 ^ 62 ->
  read_loop (S f) s (tlv id v ++ rest) =
    match read_param s id (zlen v) (v ++ rest) with
    | PErr e => PErr e
    | POk s' r3 => read_loop f s' r3
    end.
Proof.
  intros Hid Hv. unfold tlv. rewrite <- !app_assoc.
  pose proof (tp_venc_length id Hid) as Hl.
  destruct (venc id) as [|b0 t] eqn:Ev; [cbn [length] in Hl; lia|].
  cbn [app read_loop]. change (b0 :: t ++ ?x) with ((b0 :: t) ++ x). rewrite <- Ev.
  rewrite tp_get_var_venc by exact Hid. rewrite tp_get_var_venc by exact Hv.
  destruct (zlen (v ++ rest) <? zlen v) eqn:E; [|reflexivity].
  unfold zlen in E. rewrite app_length in E. lia.
Qed.

Lemma tlv_length id v : 0 <= id < 2 ^ 62 -> 0 <= zlen v < 2 ^ 62 -> (2 + length v <= length (tlv id v))%nat.
Proof.
  intros Hid Hv. unfold tlv. rewrite !app_length.
  pose proof (tp_venc_length id Hid). pose proof (tp_venc_length (zlen v) Hv). lia.
Qed.

Section ReadParam.
Variables (st : tp) (got : list bool) (len : Z) (r : list Z).

Lemma rp_odcid : read_param (st, got) ID_ODCID len r =
  match decode_cid len (odcid st) r with
  | POk c r' => POk (set_odcid st c, got) r' | PErr e => PErr e end.
Proof. reflexivity. Qed.
Lemma rp_srt : read_param (st, got) ID_SRT len r =
  if negb (len =? 16) || is_some (srt st) then PErr Malformed
  else POk (set_srt st (firstn 16 r), got) (skipn 16 r).
Proof. reflexivity. Qed.
Lemma rp_dam : read_param (st, got) ID_DAM len r =
  if negb (len =? 0) || dam st then PErr Malformed else POk (set_dam st, got) r.
Proof. reflexivity. Qed.
Lemma rp_pa : read_param (st, got) ID_PA len r =
  if is_some (pa st) then PErr Malformed
  else match read_pa (firstn (Z.to_nat len) r) with
       | POk (a, used) _ => POk (set_pa st a, got) (skipn used r)
       | PErr e => PErr e
       end.
Proof. reflexivity. Qed.
Lemma rp_iscid : read_param (st, got) ID_ISCID len r =
  match decode_cid len (iscid st) r with
  | POk c r' => POk (set_iscid st c, got) r' | PErr e => PErr e end.
Proof. reflexivity. Qed.
Lemma rp_rscid : read_param (st, got) ID_RSCID len r =
  match decode_cid len (rscid st) r with
  | POk c r' => POk (set_rscid st c, got) r' | PErr e => PErr e end.
Proof. reflexivity. Qed.
Lemma rp_mdfs : read_param (st, got) ID_MDFS len r =
  if (8 <? len) || is_some (mdfs st) then PErr Malformed
  else match get_var r with
       | POk v r' => POk (set_mdfs st v, got) r' | PErr e => PErr e end.
Proof. reflexivity. Qed.
Lemma rp_gqb : read_param (st, got) ID_GQB len r =
  if len =? 0 then POk (set_gqb st, got) r else PErr Malformed.
Proof. reflexivity. Qed.
Lemma rp_mad : read_param (st, got) ID_MAD len r =
  match get_var r with
  | POk v r' => POk (set_mad st v, got) r' | PErr e => PErr e end.
Proof. reflexivity. Qed.
Lemma rp_int k : (k < 11)%nat -> read_param (st, got) (nth k int_ids 0) len r =
  match get_var r with
  | POk v r' =>
      if negb (len =? vsize v) || nth k got false then PErr Malformed
      else POk (set_ints st (upd k v (ints st)), upd k true got) r'
  | PErr e => PErr e
  end.
Proof. intros Hk. do 11 (destruct k as [|k]; [reflexivity|]). lia. Qed.

(** Reserved identifiers (31 N + 27, RFC 9000 18.1): no known identifier has that residue. *)
Lemma rp_reserved id : id mod 31 = 27 ->
  read_param (st, got) id len r = POk (st, got) (skipn (Z.to_nat len) r).
Proof.
  intros Hid.
  assert (Hn : forall c, c mod 31 <> 27 -> (id =? c) = false).
  { intros c Hc. apply Z.eqb_neq. intros ->. contradiction. }
  unfold read_param, ID_ODCID, ID_SRT, ID_DAM, ID_PA, ID_ISCID, ID_RSCID, ID_MDFS, ID_GQB, ID_MAD,
    int_ids, index_of.
  rewrite !Hn by (vm_compute; discriminate). reflexivity.
Qed.
End ReadParam.

Definition item (p : tp) (g : option (Z * list Z)) (k : nat) : list Z :=
  match write_item p g k with Some b => b | None => [] end.

Fixpoint has (done : list nat) (k : nat) : bool :=
  match done with
  | [] => false
  | j :: tl => Nat.eqb k j || has tl k
  end.

Lemma neqb a b : a <> b -> Nat.eqb a b = false.
Proof. apply Nat.eqb_neq. Qed.

Lemma has_cons done j k : has (k :: done) j = Nat.eqb j k || has done j.
Proof. reflexivity. Qed.

Lemma has_in done k : In k done -> has done k = true.
Proof.
  induction done as [|j tl IH]; [intros []|]. intros [->|H]; cbn [has].
  - now rewrite Nat.eqb_refl.
  - rewrite IH by exact H. apply orb_true_r.
Qed.

(** [view p done]: the reader's state once the items [done] of [p] have gone by, the loop
    invariant of [read_all].  An integer parameter is flagged as seen only if it was written,
    that is if it differs from its default.  Items are numbered as in [write_item]: 0-10 the
    integer parameters in [int_ids] order, 11 the reserved one, 12-20 the fields of [vtp]. *)
Definition vints (p : tp) (h : nat -> bool) : list Z :=
  map (fun k => nth k (if h k then ints p else int_defaults) 0) (seq 0 11).

Definition vgot (p : tp) (h : nat -> bool) : list bool :=
  map (fun k => h k && negb (nth k (ints p) 0 =? nth k int_defaults 0)) (seq 0 11).

Definition vtp (p : tp) (h : nat -> bool) (l : list Z) : tp :=
  {| ints := l;
     dam := h 13%nat && dam p;
     mdfs := if h 14%nat then mdfs p else None;
     iscid := if h 17%nat then iscid p else None;
     gqb := h 19%nat && gqb p;
     mad := if h 20%nat then mad p else None;
     odcid := if h 16%nat then odcid p else None;
     rscid := if h 18%nat then rscid p else None;
     srt := if h 12%nat then srt p else None;
     pa := if h 15%nat then pa p else None |}.

Definition view (p : tp) (done : list nat) : state :=
  (vtp p (has done) (vints p (has done)), vgot p (has done)).

Lemma view_nil p : view p [] = init_state.
Proof. reflexivity. Qed.

Lemma view_all p done :
  length (ints p) = 11%nat -> (forall k, (k < 21)%nat -> has done k = true) ->
  fst (view p done) = p.
Proof.
  intros Hl H. unfold view, vtp, vints. cbn [fst map seq].
  rewrite !H by lia. cbn [andb].
  destruct p as [l ? ? ? ? ? ? ? ? ?]. cbn [TParams.ints] in *.
  do 12 (destruct l as [|? l]; try discriminate Hl). reflexivity.
Qed.

Lemma view_cons_ge p done k :
  (11 <= k)%nat ->
  view p (k :: done) = (vtp p (has (k :: done)) (vints p (has done)), vgot p (has done)).
Proof.
  intros Hk. unfold view, vints, vgot. f_equal; [f_equal|]; apply map_ext_in; intros j Hj;
    apply in_seq in Hj; rewrite has_cons;
    now rewrite (neqb j k) by lia.
Qed.

(** Evaluates [vtp] and [has (K :: done)] at a literal [K]. *)
Ltac vtp_eq :=
  unfold vtp;
  cbn [ints dam mdfs iscid gqb mad odcid rscid srt pa
       set_dam set_mdfs set_iscid set_gqb set_mad set_odcid set_rscid set_srt set_pa];
  cbn [has Nat.eqb orb andb].

Lemma upd_map_seq {A} (f : nat -> A) v n : forall a k,
  upd k v (map f (seq a n)) = map (fun j => if Nat.eqb j (a + k) then v else f j) (seq a n).
Proof.
  induction n as [|n IH]; intros a k; [destruct k; reflexivity|].
  destruct k as [|k]; cbn [seq map upd].
  - rewrite Nat.add_0_r, Nat.eqb_refl. f_equal. apply map_ext_in. intros j Hj.
    apply in_seq in Hj. now rewrite (neqb j a) by lia.
  - rewrite (neqb a (a + S k)) by lia.
    f_equal. rewrite IH. now replace (S a + k)%nat with (a + S k)%nat by lia.
Qed.

Lemma view_cons_int p done k :
  (k < 11)%nat -> has done k = false ->
  view p (k :: done) =
    if nth k (ints p) 0 =? nth k int_defaults 0 then view p done
    else (set_ints (fst (view p done)) (upd k (nth k (ints p) 0) (vints p (has done))),
          upd k true (vgot p (has done))).
Proof.
  intros Hk Hfr. unfold view, vtp. rewrite !has_cons. cbn [fst set_ints ints dam mdfs iscid gqb mad odcid rscid srt pa].
  rewrite !(neqb _ k) by lia.
  cbn [orb]. unfold vints, vgot.
  destruct (nth k (ints p) 0 =? nth k int_defaults 0) eqn:Ed; rewrite ?upd_map_seq;
    unfold set_ints; cbn [ints dam mdfs iscid gqb mad odcid rscid srt pa];
    (f_equal; [f_equal|]); apply map_ext_in; intros j _; rewrite has_cons; cbn [Nat.add];
    (destruct (Nat.eqb_spec j k) as [->|]; [rewrite ?Hfr; cbn [orb andb]|reflexivity]).
  - now apply Z.eqb_eq.
  - now rewrite Ed.
  - reflexivity.
  - now rewrite Ed.
Qed.

Lemma decode_cid_ok c rest : zlen c <= MAX_CID -> decode_cid (zlen c) None (c ++ rest) = POk c rest.
Proof.
  intros Hc. unfold decode_cid. cbn [is_some]. rewrite orb_false_r.
  destruct (MAX_CID <? zlen c) eqn:E1; [lia|]. cbn [orb].
  destruct (zlen (c ++ rest) <? zlen c) eqn:E2.
  { unfold zlen in E2. rewrite app_length in E2. lia. }
  unfold zlen. rewrite Nat2Z.id. now rewrite firstn_app_exact, skipn_app_exact.
Qed.

Lemma all_zero_zeros n : all_zero (zeros n) = true.
Proof. induction n; cbn; auto. Qed.

Definition addr_bytes (n : nat) (v : option (list Z * Z)) : list Z * list Z :=
  match v with Some (ip, port) => (ip, be_bytes 2 port) | None => (zeros n, zeros 2) end.

Lemma addr_bytes_ok n v :
  wf_addr n v = true ->
  length (fst (addr_bytes n v)) = n /\ length (snd (addr_bytes n v)) = 2%nat /\
  (if all_zero (fst (addr_bytes n v)) && (be_val (snd (addr_bytes n v)) 0 =? 0) then None
   else Some (fst (addr_bytes n v), be_val (snd (addr_bytes n v)) 0)) = v.
Proof.
  destruct v as [[ip port]|]; cbn [wf_addr addr_bytes fst snd]; intros H.
  - andb_hyps. rewrite be_val_small by (change (256 ^ Z.of_nat 2) with (2 ^ 16); lia).
    split; [now apply Nat.eqb_eq|]. split; [apply be_bytes_length|].
    match goal with H : negb _ = true |- _ => apply negb_true_iff in H; now rewrite H end.
  - unfold zeros. rewrite !repeat_length. fold (zeros n). now rewrite all_zero_zeros.
Qed.

Lemma pa_bytes_split a :
  pa_bytes a =
  (fst (addr_bytes 4 (pa_v4 a)) ++ snd (addr_bytes 4 (pa_v4 a)))
  ++ (fst (addr_bytes 16 (pa_v6 a)) ++ snd (addr_bytes 16 (pa_v6 a)))
  ++ [zlen (pa_cid a)] ++ pa_cid a ++ pa_tok a.
Proof. unfold pa_bytes. destruct (pa_v4 a) as [[? ?]|], (pa_v6 a) as [[? ?]|]; reflexivity. Qed.

Lemma read_pa_layout ip4 pb4 ip6 pb6 cid tok :
  length ip4 = 4%nat -> length pb4 = 2%nat -> length ip6 = 16%nat -> length pb6 = 2%nat ->
  length tok = 16%nat -> zlen cid <= MAX_CID ->
  read_pa ((ip4 ++ pb4) ++ (ip6 ++ pb6) ++ [zlen cid] ++ cid ++ tok) =
    let a4 := if all_zero ip4 && (be_val pb4 0 =? 0) then None else Some (ip4, be_val pb4 0) in
    let a6 := if all_zero ip6 && (be_val pb6 0 =? 0) then None else Some (ip6, be_val pb6 0) in
    if negb (is_some a4) && negb (is_some a6) then PErr Illegal
    else POk ({| pa_v4 := a4; pa_v6 := a6; pa_cid := cid; pa_tok := tok |},
              (25 + length cid + 16)%nat) [].
Proof.
  intros L4 P4 L6 P6 Lt Hc. set (fx := ip4 ++ pb4 ++ ip6 ++ pb6 ++ [zlen cid]).
  replace ((ip4 ++ pb4) ++ (ip6 ++ pb6) ++ [zlen cid] ++ cid ++ tok) with (fx ++ cid ++ tok)
    by (subst fx; now rewrite <- !app_assoc).
  unfold read_pa.
  replace (take 25 (fx ++ cid ++ tok)) with (Some (fx, cid ++ tok))
    by (symmetry; apply split_app; subst fx; rewrite !app_length; cbn [length]; lia).
  cbv zeta.
  replace (firstn 4 fx) with ip4 by (symmetry; now apply firstn_app_exact).
  replace (firstn 2 (skipn 4 fx)) with pb4
    by (subst fx; now rewrite skipn_app_exact, firstn_app_exact).
  replace (firstn 16 (skipn 6 fx)) with ip6
    by (subst fx; rewrite (app_assoc ip4), skipn_app_exact, firstn_app_exact;
        rewrite ?app_length; lia || reflexivity).
  replace (firstn 2 (skipn 22 fx)) with pb6
    by (subst fx; rewrite (app_assoc ip4), (app_assoc (ip4 ++ pb4)), skipn_app_exact, firstn_app_exact;
        rewrite ?app_length; lia || reflexivity).
  replace (nth 24 fx 0) with (zlen cid)
    by (subst fx; rewrite !app_assoc, app_nth2; rewrite !app_length;
        [now replace (24 - _)%nat with 0%nat by lia|lia]).
  rewrite zlen_app_ltb. replace (MAX_CID <? zlen cid) with false by lia. cbn [orb].
  rewrite to_nat_zlen, firstn_app_exact, skipn_app_exact by reflexivity.
  replace (take 16 tok) with (Some (tok, @nil Z))
    by (symmetry; rewrite <- (app_nil_r tok) at 1; now apply split_app).
  reflexivity.
Qed.

Lemma read_pa_ok a :
  wf_pa a = true -> read_pa (pa_bytes a) = POk (a, length (pa_bytes a)) [].
Proof.
  intros Hwf. unfold wf_pa, wf_cid, wf_tok in Hwf. andb_hyps. rewrite pa_bytes_split.
  destruct a as [v4 v6 cid tok]. cbn [pa_v4 pa_v6 pa_cid pa_tok] in *.
  destruct (addr_bytes_ok 4 v4) as (L4 & P4 & E4); [assumption|].
  destruct (addr_bytes_ok 16 v6) as (L6 & P6 & E6); [assumption|].
  match goal with H : Nat.eqb (length tok) 16 = true |- _ => apply Nat.eqb_eq in H; rename H into Lt end.
  rewrite read_pa_layout by (assumption || lia). cbv zeta. rewrite E4, E6.
  replace (negb (is_some v4) && negb (is_some v6)) with false by (destruct v4, v6; easy).
  do 3 f_equal. rewrite !app_length, L4, P4, L6, P6, Lt. cbn [length]. lia.
Qed.

Lemma pa_bytes_length a : wf_pa a = true -> zlen (pa_bytes a) = 41 + zlen (pa_cid a).
Proof.
  intros Hwf. unfold wf_pa, wf_tok in Hwf. andb_hyps. rewrite pa_bytes_split.
  destruct (addr_bytes_ok 4 (pa_v4 a)) as (L4 & P4 & _); [assumption|].
  destruct (addr_bytes_ok 16 (pa_v6 a)) as (L6 & P6 & _); [assumption|].
  match goal with H : Nat.eqb _ 16 = true |- _ => apply Nat.eqb_eq in H; rename H into Lt end.
  unfold zlen. rewrite !app_length, L4, P4, L6, P6, Lt. cbn [length]. lia.
Qed.

Record wf_facts (p : tp) : Prop := {
  wf_len : length (ints p) = 11%nat;
  wf_ints : forall k, (k < 11)%nat -> 0 <= nth k (ints p) 0 < 2 ^ 62;
  wf_mdfs : forall x, mdfs p = Some x -> 0 <= x < 2 ^ 62;
  wf_mad : forall x, mad p = Some x -> 0 <= x < 2 ^ 62;
  wf_iscid : forall c, iscid p = Some c -> zlen c <= MAX_CID;
  wf_odcid : forall c, odcid p = Some c -> zlen c <= MAX_CID;
  wf_rscid : forall c, rscid p = Some c -> zlen c <= MAX_CID;
  wf_srt : forall t, srt p = Some t -> length t = 16%nat;
  wf_paddr : forall a, pa p = Some a -> wf_pa a = true }.

Lemma wf_ocid_some o c : wf_ocid o = true -> o = Some c -> zlen c <= MAX_CID.
Proof. intros H ->. unfold wf_ocid, wf_cid in H. andb_hyps. lia. Qed.

Lemma wf_tp_facts msc server p : wf_tp msc server p = true -> wf_facts p.
Proof.
  intros H. unfold wf_tp in H. andb_hyps.
  match goal with H : Nat.eqb (length (ints p)) NINT = true |- _ =>
    apply Nat.eqb_eq in H; rename H into Hl end.
  match goal with H : forallb in62 (ints p) = true |- _ => rename H into Hall end.
  constructor.
  - exact Hl.
  - intros k Hk. rewrite forallb_forall in Hall. apply VarintProofs.in62_true. apply Hall. apply nth_In.
    rewrite Hl. exact Hk.
  - intros x E. rewrite E in *. now apply VarintProofs.in62_true.
  - intros x E. rewrite E in *. now apply VarintProofs.in62_true.
  - intros c. now apply wf_ocid_some.
  - intros c. now apply wf_ocid_some.
  - intros c. now apply wf_ocid_some.
  - intros t E. rewrite E in *. unfold wf_tok in *. andb_hyps. now apply Nat.eqb_eq.
  - intros a E. rewrite E in *. assumption.
Qed.

Lemma step_tlv s s' id v rest f :
  0 <= id < 2 ^ 62 -> zlen v < 2 ^ 62 ->
  read_param s id (zlen v) (v ++ rest) = POk s' rest ->
  (length (tlv id v ++ rest) <= f)%nat ->
  exists f', (length rest <= f')%nat /\ read_loop f s (tlv id v ++ rest) = read_loop f' s' rest.
Proof.
  intros Hid Hv Hrp Hf. assert (Hv' : 0 <= zlen v < 2 ^ 62) by (unfold zlen in *; lia).
  pose proof (tlv_length id v Hid Hv') as Hl. rewrite app_length in Hf.
  destruct f as [|f0]; [lia|]. exists f0. split; [lia|].
  rewrite read_loop_tlv by assumption. now rewrite Hrp.
Qed.

Lemma step_nil s rest f :
  (length rest <= f)%nat ->
  exists f', (length rest <= f')%nat /\ read_loop f s rest = read_loop f' s rest.
Proof. intros H. exists f. split; [exact H|reflexivity]. Qed.

(** An absent field writes nothing and reads as its default: the view does not move. *)
Ltac absent Hfr E :=
  match goal with
  | |- context [vtp ?p (has (?K :: ?done)) ?l] =>
      replace (vtp p (has (K :: done)) l) with (vtp p (has done) l);
      [now apply step_nil|vtp_eq; now rewrite Hfr, E]
  end.

(** A present field: its TLV goes through the loop (identifier and length are small) ... *)
Ltac tlv_step id :=
  apply step_tlv; try assumption; [unfold id; lia|unfold zlen, MAX_CID in *; cbn [length]; lia|].
(** ... and once [read_param] has set it, the two states agree field by field. *)
Ltac present Hfr E := vtp_eq; now rewrite ?Hfr, E.
Ltac cid_case F id rp wfF Hfr :=
  let c := fresh "c" in let E := fresh "E" in
  destruct F as [c|] eqn:E; cbn [opt_tlv]; [|absent Hfr E];
  pose proof (wfF c E); tlv_step id; rewrite rp; vtp_eq;
  now rewrite Hfr, E, decode_cid_ok by assumption.

Lemma step_item msc server p g k done rest f :
  wf_tp msc server p = true -> wf_grease g = true -> (k < 21)%nat -> has done k = false ->
  (length (item p g k ++ rest) <= f)%nat ->
  exists f', (length rest <= f')%nat /\
    read_loop f (view p done) (item p g k ++ rest) = read_loop f' (view p (k :: done)) rest.
Proof.
  intros Hwf Hg Hk Hfr Hf. pose proof (wf_tp_facts _ _ _ Hwf) as W.
  destruct (Nat.ltb k NINT) eqn:Ek.
  - apply Nat.ltb_lt in Ek. unfold NINT in Ek. pose proof (wf_ints p W k Ek) as Hv.
    unfold item, write_item in *. rewrite (proj2 (Nat.ltb_lt k NINT) Ek) in *.
    rewrite (view_cons_int p done k Ek Hfr).
    destruct (nth k (ints p) 0 =? nth k int_defaults 0) eqn:Ed; [now apply step_nil|].
    assert (Hgot : nth k (vgot p (has done)) false = false).
    { unfold vgot. cbn [map seq]. clear - Ek Hfr.
      do 11 (destruct k as [|k]; [cbn [nth]; now rewrite Hfr|]). lia. }
    unfold view in *. cbn [fst]. apply step_tlv; try assumption.
    + clear - Ek. do 11 (destruct k as [|k]; [cbn; lia|]). lia.
    + pose proof (tp_venc_length _ Hv). unfold zlen. lia.
    + now rewrite rp_int, tp_get_var_venc, vsize_venc, Z.eqb_refl, Hgot by assumption.
  - apply Nat.ltb_ge in Ek. unfold NINT in Ek. rewrite view_cons_ge by exact Ek. unfold view in *.
    set (l := vints p (has done)) in *. set (gt := vgot p (has done)) in *.
    do 11 (destruct k as [|k]; [lia|]). unfold item, write_item in *. cbn [Nat.ltb Nat.leb NINT] in *.
    destruct k as [|k].
    { replace (vtp p (has (11%nat :: done)) l) with (vtp p (has done) l) by now vtp_eq.
      destruct g as [[gid gp]|]; [|now apply step_nil].
      cbn [wf_grease] in Hg. andb_hyps.
      match goal with H : in62 gid = true |- _ => apply VarintProofs.in62_true in H end.
      apply step_tlv; try assumption; [lia|].
      rewrite rp_reserved by lia. now rewrite to_nat_zlen, skipn_app_exact. }
    destruct k as [|k].
    { destruct (srt p) as [t|] eqn:E; cbn [opt_tlv].
      2:{ absent Hfr E. }
      pose proof (wf_srt p W t E) as Ht.
      tlv_step ID_SRT.
      rewrite rp_srt. unfold zlen. rewrite Ht, firstn_app_exact, skipn_app_exact by exact Ht.
      present Hfr E. }
    destruct k as [|k].
    { destruct (dam p) eqn:E.
      2:{ absent Hfr E. }
      tlv_step ID_DAM.
      rewrite rp_dam. present Hfr E. }
    destruct k as [|k].
    { destruct (mdfs p) as [x|] eqn:E.
      2:{ absent Hfr E. }
      pose proof (wf_mdfs p W x E) as Hx. pose proof (tp_venc_length _ Hx).
      tlv_step ID_MDFS.
      rewrite rp_mdfs, tp_get_var_venc by exact Hx.
      replace (8 <? zlen (venc x)) with false by (unfold zlen; lia).
      present Hfr E. }
    destruct k as [|k].
    { destruct (pa p) as [a|] eqn:E.
      2:{ absent Hfr E. }
      pose proof (wf_paddr p W a E) as Ha. pose proof (pa_bytes_length a Ha) as Hl.
      assert (zlen (pa_cid a) <= MAX_CID) by (unfold wf_pa, wf_cid in Ha; andb_hyps; lia).
      tlv_step ID_PA.
      rewrite rp_pa, to_nat_zlen, firstn_app_exact, read_pa_ok, skipn_app_exact by trivial.
      present Hfr E. }
    destruct k as [|k].
    { cid_case (odcid p) ID_ODCID rp_odcid (wf_odcid p W) Hfr. }
    destruct k as [|k].
    { cid_case (iscid p) ID_ISCID rp_iscid (wf_iscid p W) Hfr. }
    destruct k as [|k].
    { cid_case (rscid p) ID_RSCID rp_rscid (wf_rscid p W) Hfr. }
    destruct k as [|k].
    { destruct (gqb p) eqn:E.
      2:{ absent Hfr E. }
      tlv_step ID_GQB.
      rewrite rp_gqb. present Hfr E. }
    destruct k as [|k]; [|lia].
    { destruct (mad p) as [x|] eqn:E.
      2:{ absent Hfr E. }
      pose proof (wf_mad p W x E) as Hx. pose proof (tp_venc_length _ Hx).
      tlv_step ID_MAD.
      rewrite rp_mad, tp_get_var_venc by exact Hx. present Hfr E. }
Qed.

Lemma write_items p g order :
  Forall (fun k => (k < 21)%nat) order ->
  write p g order = Some (concat (map (item p g) order)).
Proof.
  induction 1 as [|k tl Hk _ IH]; [reflexivity|].
  cbn [write map concat]. rewrite IH. unfold item.
  destruct (write_item p g k) eqn:E; [reflexivity|].
  exfalso. unfold write_item in E. destruct (Nat.ltb k NINT) eqn:El; [discriminate|].
  apply Nat.ltb_ge in El. unfold NINT in El.
  do 21 (destruct k as [|k]; [try discriminate; lia|]). lia.
Qed.

Lemma read_loop_nil f s : read_loop f s [] = POk s [].
Proof. destruct f; reflexivity. Qed.

Lemma read_all msc server p g order : forall done f,
  wf_tp msc server p = true -> wf_grease g = true ->
  Forall (fun k => (k < 21)%nat) order -> NoDup order ->
  (forall k, In k order -> has done k = false) ->
  (length (concat (map (item p g) order)) <= f)%nat ->
  read_loop f (view p done) (concat (map (item p g) order)) = POk (view p (rev order ++ done)) [].
Proof.
  induction order as [|k tl IH]; intros done f Hwf Hg Hall Hnd Hfr Hf.
  - apply read_loop_nil.
  - cbn [map concat] in *. inversion Hall as [|? ? Hk Hall']; subst.
    inversion Hnd as [|? ? Hnin Hnd']; subst.
    destruct (step_item msc server p g k done _ f Hwf Hg Hk (Hfr k (or_introl eq_refl)) Hf)
      as (f' & Hf' & ->).
    cbn [rev]. rewrite <- app_assoc. apply IH; try assumption.
    intros k' Hin. change (has ([k] ++ done) k') with (Nat.eqb k' k || has done k').
    rewrite (Hfr k'), orb_false_r by now right. apply Nat.eqb_neq. intros ->. contradiction.
Qed.

(** [read (write p)] = [p], for every valid [p], any reserved parameter, any write order. *)
Theorem tparams_roundtrip msc server p g order :
  wf_tp msc server p = true -> wf_grease g = true -> Permutation order (seq 0 21) ->
  exists b, write p g order = Some b /\ read msc server b = ROk p.
Proof.
  intros Hwf Hg Hperm.
  assert (Hall : Forall (fun k => (k < 21)%nat) order).
  { apply Forall_forall. intros k Hk. apply (Permutation_in _ Hperm) in Hk. apply in_seq in Hk. lia. }
  assert (Hnd : NoDup order).
  { eapply Permutation_NoDup; [apply Permutation_sym; exact Hperm|]. apply seq_NoDup. }
  exists (concat (map (item p g) order)). split; [now apply write_items|].
  unfold read. rewrite <- (view_nil p).
  rewrite (read_all msc server p g order [] _ Hwf Hg Hall Hnd (fun _ _ => eq_refl) (le_n _)).
  pose proof (wf_tp_facts _ _ _ Hwf) as W.
  pose proof (view_all p (rev order ++ []) (wf_len p W)) as Hfin.
  destruct (view p (rev order ++ [])) as [st got]. cbn [fst] in Hfin. rewrite Hfin.
  - unfold wf_tp in Hwf. apply andb_true_iff in Hwf as [_ Hv]. now rewrite Hv.
  - intros k Hk. apply has_in. rewrite app_nil_r. apply -> in_rev. apply (Permutation_in _ (Permutation_sym Hperm)).
    apply in_seq. lia.
Qed.

(** Fuel is an artefact of the model's loop: on arbitrary input it never runs out. *)
Definition shrinks {A} (r : list Z) (x : pres A) : Prop :=
  match x with POk _ r' => (length r' <= length r)%nat | PErr e => e <> OutOfFuel end.

Lemma get_var_shorter bs :
  match get_var bs with POk _ r => (length r < length bs)%nat | PErr e => e <> OutOfFuel end.
Proof.
  unfold get_var. destruct (Varint.decode bs) as [[v r]|] eqn:E; [|discriminate].
  destruct (VarintProofs.decode_inv _ _ _ E) as (p & -> & Hl & _). rewrite app_length. lia.
Qed.

Lemma decode_cid_shrinks len cur r : shrinks r (decode_cid len cur r).
Proof.
  unfold decode_cid. destruct (_ || _); [discriminate|]. cbn [shrinks]. rewrite skipn_length. lia.
Qed.

Lemma read_pa_no_fuel v : match read_pa v with POk _ _ => True | PErr e => e <> OutOfFuel end.
Proof.
  unfold read_pa. destruct (take 25 v) as [[fixed r1]|]; [|discriminate]. cbv zeta.
  destruct (_ || _); [discriminate|]. destruct (take 16 _) as [[tok ?]|]; [|discriminate].
  destruct (_ && _); [discriminate|exact I].
Qed.

Lemma read_param_shrinks s id len r : shrinks r (read_param s id len r).
Proof.
  destruct s as [st got]. unfold read_param.
  pose proof (get_var_shorter r) as Hg. pose proof (skipn_length 16 r) as H16.
  pose proof (skipn_length (Z.to_nat len) r) as Hlen.
  repeat match goal with |- shrinks _ (if ?c then _ else _) => destruct c end;
    try (cbn [shrinks]; (discriminate || lia)).
  all: try (match goal with |- context [decode_cid ?a ?b ?c] =>
              pose proof (decode_cid_shrinks a b c) as H; destruct (decode_cid a b c) end; exact H).
  all: try (destruct (get_var r); cbn [shrinks]; (exact Hg || lia)).
  - match goal with |- context [read_pa ?x] =>
      pose proof (read_pa_no_fuel x) as H; destruct (read_pa x) as [[a used] ?|e] end;
      cbn [shrinks]; [rewrite skipn_length; lia|exact H].
  - destruct (index_of id int_ids); [|cbn [shrinks]; lia].
    destruct (get_var r); [destruct (_ || _)|]; cbn [shrinks]; (discriminate || exact Hg || lia).
Qed.

Lemma read_loop_fuel f : forall s bs,
  (length bs <= f)%nat -> read_loop f s bs <> PErr OutOfFuel.
Proof.
  induction f as [|k IH]; intros s bs Hf.
  - destruct bs; [discriminate|cbn [length] in Hf; lia].
  - destruct bs as [|b t]; [discriminate|]. cbn [read_loop].
    pose proof (get_var_shorter (b :: t)) as H1.
    destruct (get_var (b :: t)) as [id r1|e]; [|congruence].
    pose proof (get_var_shorter r1) as H2. destruct (get_var r1) as [len r2|e]; [|congruence].
    destruct (zlen r2 <? len); [discriminate|].
    pose proof (read_param_shrinks s id len r2) as H3.
    destruct (read_param s id len r2) as [s' r3|e]; cbn [shrinks] in H3; [|congruence].
    apply IH. lia.
Qed.

Theorem read_total msc server bs :
  match read msc server bs with
  | ROk _ | RErr Malformed | RErr Illegal => True
  | RErr OutOfFuel => False
  end.
Proof.
  unfold read. pose proof (read_loop_fuel (length bs) init_state bs (le_n _)) as H.
  destruct (read_loop (length bs) init_state bs) as [[st got] r|e].
  - destruct (validate msc server st); exact I.
  - destruct e; try exact I. congruence.
Qed.
