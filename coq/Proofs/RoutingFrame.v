(** Each endpoint operation keeps the routing invariant and is confined to the connection it is
    about ([label]). *)
From QV Require Import Lib.Tac Lib.Corr Model.Routing Proofs.RoutingMap Proofs.RoutingInv.
Open Scope Z_scope.

(** The connection a step is about: the one it creates, changes or removes. *)
Definition label (s : st) (op : list Z) : option Z :=
  match op with
  | [] => None
  | opc :: args =>
      if (opc =? 1) || (opc =? 3) then Some (vacant_key s)
      else if in_range 5 8 opc then match args with ch :: _ => Some ch | [] => None end
      else None
  end.

Lemma confined_same a s s' (o o' : list Z) : Some (s, o') = Some (s', o) -> confined a s s'.
Proof. intros [= <- _]. apply confined_refl. Qed.

Lemma some_pair_inv {A B} (x : option A) (e : A -> B) y o :
  match x with Some v => Some (v, e v) | None => None end = Some (y, o) -> x = Some y.
Proof. destruct x; [intros [= <- _]; reflexivity | discriminate]. Qed.

Lemma confined_remove_initial a s x s' : remove_initial s x = Some s' -> confined a s s'.
Proof.
  unfold remove_initial. destruct (is_nil x); [intros [= <-]; apply confined_refl|].
  destruct (mem x (s_init s)); [|discriminate]. intros [= <-].
  apply confined_shrink; rt_red; [repeat split | | auto |].
  - intros [] k ch; try exact (fun E => E). cbn [entry]. rt_red. intros E. apply lookup_remove_Some in E. apply E.
  - intros N. rewrite lookup_remove. destruct (lz_eqb [] x); [reflexivity | exact N].
Qed.

Lemma confined_insert_initial_inc a s x j : confined a s (insert_initial s x (RInc j)).
Proof.
  unfold insert_initial. destruct (is_nil x) eqn:En; [apply confined_refl|].
  apply confined_shrink; rt_red; [repeat split | | auto |].
  - intros [] k ch; try exact (fun E => E). cbn [entry]. rt_red. intros E.
    apply lookup_insert_Some in E. destruct E as [[_ E]|[_ E]]; [discriminate | exact E].
  - intros N. rewrite lookup_insert_neq; [exact N | intros <-; discriminate].
Qed.

Lemma confined_insert_initial_conn s x ch m :
  live s ch m -> m_server m = true -> m_init m = x -> confined (Some ch) s (insert_initial s x (RConn ch)).
Proof.
  intros L Sv E. unfold insert_initial. destruct (is_nil x) eqn:En; [apply confined_refl|].
  apply (confined_put Kinit s x ch m L (conj Sv E)). intros ->. discriminate.
Qed.

Lemma confined_issue n : forall s ch str s' o,
  issue s ch n str = Some (s', o) -> confined (Some ch) s s'.
Proof.
  induction n as [|n IH]; intros s ch str s' o; cbn [issue]; [apply confined_same|].
  destruct (new_cid s ch str) as [[[c s1] str1]|] eqn:N; [|discriminate].
  apply new_cid_spec in N. destruct N as (ids1 & -> & Hc). rt_red.
  destruct (lookup [ch] (s_conns s)) as [m|] eqn:L; [|discriminate].
  destruct (issue _ ch n str1) as [[s2 o2]|] eqn:R; [|discriminate]. intros [= <- _].
  exact (confined_trans _ _ _ _ (confined_issue_one s ch m c ids1 L Hc) (IH _ _ _ _ _ R)).
Qed.

Lemma confined_retire s ch seq allow cands s' o :
  op_retire s ch seq allow cands = Some (s', o) -> confined (Some ch) s s'.
Proof.
  unfold op_retire. destruct (lookup [ch] (s_conns s)) as [m|] eqn:L; [|discriminate].
  destruct (lookup [seq] (m_loc m)) as [c|] eqn:Hc; [|apply confined_same].
  pose proof (confined_retire_one s ch m seq c L Hc) as C1.
  destruct (negb (allow =? 0)).
  - destruct (issue _ ch 1 _) as [[s3 o3]|] eqn:R; [|discriminate]. intros [= <- _].
    exact (confined_trans _ _ _ _ C1 (confined_issue 1 _ _ _ _ _ R)).
  - intros [= <- _]. exact C1.
Qed.

Lemma confined_token s ch r t s' o :
  op_token fixed s ch r t = Some (s', o) -> confined (Some ch) s s'.
Proof.
  unfold op_token. destruct (lookup [ch] (s_conns s)) as [m|] eqn:L; [|discriminate].
  set (m' := mkMeta _ _ _ _ _ _ _ (Some (r, t))). intros [= <- _].
  (* For the invariant: first the old token leaves the table, then the record changes, then the
     new token is entered. *)
  set (tok1 := match m_tok m with Some old => remove_if (tok_key old) ch (s_tok s) | None => s_tok s end).
  set (s1 := set_tok s tok1).
  set (s2 := set_ids (update_conn s1 ch m') (s_ids s1)).
  assert (E : confined (Some ch) s (put Ktok s2 [r; t] ch));
    [|unfold s2, s1, tok1 in E; destruct (m_tok m); exact E].
  assert (L1 : live s1 ch m) by exact L.
  assert (L2 : live s2 ch m') by apply lookup_insert_eq.
  apply confined_trans with s1; [|apply confined_trans with s2].
  - apply confined_shrink; rt_red; [repeat split | | auto | auto].
    intros [] k ch0; try exact (fun E => E). unfold tok1.
    destruct (m_tok m); [intros E; apply lookup_remove_if_Some in E; apply E | exact (fun E => E)].
  - apply confined_inv. intros I1. apply (confined_update s1 ch m m' _ L1 eq_refl).
    + intros kd k Nk E C. destruct kd; [contradiction | exact C | exact C | exact C |].
      exfalso. destruct C as (r0 & t0 & Ht & ->). revert E. cbn [entry]. unfold s1, tok1. rt_red. rewrite Ht.
      intros E. apply lookup_remove_if_Some in E. exact (proj2 E eq_refl eq_refl).
    + destruct (I_ok s1 I1 ch m L1). constructor; assumption.
    + intros c ch0 _ _ H. exact H.
    + intros c ch0 H. destruct (Z.eq_dec ch0 ch) as [->|N]; [left | right; auto]. split; [reflexivity|].
      exact (Inv_claim s1 Kids c ch m I1 L1 H).
  - apply (confined_put Ktok s2 [r; t] ch m' L2); [exists r, t; auto | discriminate].
Qed.

Lemma confined_connect s r fail cands s' o :
  op_connect fixed s r fail cands = Some (s', o) -> confined (Some (vacant_key s)) s s'.
Proof.
  unfold op_connect. destruct (cids_exhausted s); [apply confined_same|].
  destruct (r =? 0); [apply confined_same|].
  destruct (new_cid s (vacant_key s) (stream (s_len s) cands)) as [[[loc s1] rest]|] eqn:N; [|discriminate].
  apply new_cid_spec in N. destruct N as (ids1 & -> & Hc).
  destruct (negb (fail =? 0)); cbn [v_cleanup fixed]; intros [= <- _].
  - (* the CID just entered is forgotten again *)
    destruct Hc as [Mono New At Fresh]. apply confined_shrink; rt_red; [repeat split | | | auto].
    + intros [] k ch; try exact (fun E => E). cbn [entry]. rt_red. intros E.
      apply lookup_remove_Some in E. destruct E as [Nk E].
      destruct (New k ch E) as [H|[_ ->]]; [exact H | contradiction].
    + intros k ch Nk H. rewrite lookup_remove_neq; [exact (Mono k ch H)|].
      intros ->. rewrite (Fresh Nk) in H. discriminate.
  - exact (confined_create_cid s ids1 _ loc r 0 false Hc).
Qed.

Lemma confined_accept s k stale cands s' o :
  op_accept fixed s k stale cands = Some (s', o) -> confined (Some (vacant_key s)) s s'.
Proof.
  unfold op_accept. destruct (lookup [k] (s_incs s)) as [i|]; [|apply confined_same]. cbv zeta.
  set (s0 := set_incs s (remove [k] (s_incs s)) (s_nincs s) (s_buf s - i_bytes i)).
  change (vacant_key s0) with (vacant_key s). set (a := vacant_key s).
  assert (C0 : confined (Some a) s s0) by apply confined_incs.
  assert (Rm : forall sr, remove_initial s0 (i_dcid i) = Some sr -> confined (Some a) s sr).
  { intros sr R. exact (confined_trans _ _ _ _ C0 (confined_remove_initial _ _ _ _ R)). }
  destruct (negb (stale =? 0)); [intros H; exact (Rm _ (some_pair_inv _ _ _ _ H))|].
  destruct (cids_exhausted s0); [intros H; exact (Rm _ (some_pair_inv _ _ _ _ H))|].
  destruct (new_cid s0 a (stream (s_len s) cands)) as [[[loc s1] str1]|] eqn:N1; [|discriminate].
  apply new_cid_spec in N1. destruct N1 as (ids1 & -> & H1).
  destruct (if s_pref s then _ else _) as [[[s2 locs] issued]|] eqn:P; [|discriminate].
  assert (Cr : exists ids2, s2 = set_ids s0 ids2 /\
                 confined (Some a) s0 (add_connection s2 a (i_dcid i) locs issued loc (i_remote i) (i_local i) true)).
  { destruct (s_pref s).
    - destruct (new_cid (set_ids s0 ids1) a str1) as [[[c2 s2'] str2]|] eqn:N2; [|discriminate].
      apply new_cid_spec in N2. destruct N2 as (ids2 & -> & H2). injection P as <- <- <-.
      exists ids2. split; [reflexivity|]. exact (confined_create_cids s0 ids1 ids2 _ loc c2 _ _ true H1 H2).
    - injection P as <- <- <-.
      exists ids1. split; [reflexivity|]. exact (confined_create_cid s0 ids1 _ loc _ _ true H1). }
  destruct Cr as (ids2 & -> & C3).
  pose proof (live_add_connection (set_ids s0 ids2) (i_dcid i) locs issued loc (i_remote i) (i_local i) true) as L3.
  pose proof (confined_trans _ _ _ _ C0 (confined_trans _ _ _ _ C3
                (confined_insert_initial_conn _ (i_dcid i) a _ L3 eq_refl eq_refl))) as C4.
  destruct (i_bad i =? 1); [|intros [= <- _]; exact C4].
  intros H. exact (confined_trans _ _ _ _ C4 (confined_drained _ _ _ (some_pair_inv _ _ _ _ H))).
Qed.

Lemma confined_datagram a s kind r l t b dcid s' o :
  op_datagram s kind r l t b dcid = Some (s', o) -> confined a s s'.
Proof.
  unfold op_datagram. cbv zeta. destruct (get s kind r l t dcid) as [[k|ch]|].
  - destruct (lookup [k] (s_incs s)) as [i|]; [|discriminate].
    destruct (_ && _); [intros [= <- _]; apply confined_incs | apply confined_same].
  - apply confined_same.
  - destruct (kind =? 1).
    + destruct (_ <? MIN_INITIAL); [apply confined_same|].
      destruct (cids_exhausted s); [apply confined_same|].
      destruct (_ <? 8); [apply confined_same|]. intros [= <- _].
      exact (confined_trans _ _ _ _ (confined_incs _ _ _ _ _) (confined_insert_initial_inc _ _ _ _)).
    + destruct (negb (kind =? 0)); [apply confined_same|].
      destruct (is_nil dcid); apply confined_same.
Qed.

Lemma confined_reject a s k s' o : op_reject s k = Some (s', o) -> confined a s s'.
Proof.
  unfold op_reject. destruct (lookup [k] (s_incs s)) as [i|]; [|apply confined_same].
  destruct (remove_initial s (i_dcid i)) as [s1|] eqn:R; [|discriminate]. intros [= <- _].
  exact (confined_trans _ _ _ _ (confined_remove_initial _ _ _ _ R) (confined_incs _ _ _ _ _)).
Qed.

Lemma step_elim (R : option Z -> res -> Prop) s :
  (forall a, R a (Some (s, [-1]))) ->
  (forall r fail cands, R (Some (vacant_key s)) (op_connect fixed s r fail cands)) ->
  (forall kind r l t b dcid, R None (op_datagram s kind r l t b dcid)) ->
  (forall k stale cands, R (Some (vacant_key s)) (op_accept fixed s k stale cands)) ->
  (forall k, R None (op_reject s k)) ->
  (forall ch n cands, R (Some ch) (op_issue s ch n cands)) ->
  (forall ch seq allow cands, R (Some ch) (op_retire s ch seq allow cands)) ->
  (forall ch r t, R (Some ch) (op_token fixed s ch r t)) ->
  (forall ch, R (Some ch) (op_drained fixed s ch)) ->
  forall op, R (label s op) (step s op).
Proof.
  intros B Cn Dg Ac Rj Is Rt Tk Dr [|opc args]; [apply B|]. unfold step, step_v.
  destruct (Z.eqb_spec opc 1) as [->|_].
  { destruct args as [|r [|fail rest]]; try apply B.
    destruct (parse_cands (s_len s) rest); [apply Cn | apply B]. }
  destruct (Z.eqb_spec opc 2) as [->|_].
  { destruct args as [|kind [|r [|l [|t [|b [|dlen dcid]]]]]]; try apply B.
    match goal with |- R _ (if ?c then _ else _) => destruct c end; [apply Dg | apply B]. }
  destruct (Z.eqb_spec opc 3) as [->|_].
  { destruct args as [|k [|stale rest]]; try apply B.
    destruct (parse_cands (s_len s) rest); [apply Ac | apply B]. }
  destruct (Z.eqb_spec opc 4) as [->|_].
  { destruct args as [|k [|md [|? ?]]]; try apply B. apply Rj. }
  destruct (Z.eqb_spec opc 5) as [->|_].
  { destruct args as [|ch [|n rest]]; try apply B.
    destruct (parse_cands (s_len s) rest); [|apply B]. destruct (_ && _); [apply Is | apply B]. }
  destruct (Z.eqb_spec opc 6) as [->|_].
  { destruct args as [|ch [|seq [|allow rest]]]; try apply B.
    destruct (parse_cands (s_len s) rest); [|apply B]. destruct (_ && _); [apply Rt | apply B]. }
  destruct (Z.eqb_spec opc 7) as [->|_].
  { destruct args as [|ch [|r [|t [|? ?]]]]; try apply B. destruct (0 <=? ch); [apply Tk | apply B]. }
  destruct (Z.eqb_spec opc 8) as [->|_].
  { destruct args as [|ch [|? ?]]; try apply B. destruct (0 <=? ch); [apply Dr | apply B]. }
  apply B.
Qed.

Theorem step_confined s op s' o : step s op = Some (s', o) -> confined (label s op) s s'.
Proof.
  apply (step_elim (fun a x => x = Some (s', o) -> confined a s s')).
  - intros a. apply confined_same.
  - intros r fail cands. apply confined_connect.
  - intros kind r l t b dcid. apply confined_datagram.
  - intros k stale cands. apply confined_accept.
  - intros k. apply confined_reject.
  - intros ch n cands. unfold op_issue.
    destruct (issue s ch (Z.to_nat n) _) as [[s1 o1]|] eqn:R; [|discriminate]. intros [= <- _].
    exact (confined_issue _ _ _ _ _ _ R).
  - intros ch seq allow cands. apply confined_retire.
  - intros ch r t. apply confined_token.
  - intros ch H. unfold op_drained in H. exact (confined_drained _ _ _ (some_pair_inv _ _ _ _ H)).
Qed.

Theorem step_inv s op s' o : Inv s -> step s op = Some (s', o) -> Inv s'.
Proof. intros I H. apply (step_confined s op s' o H I). Qed.

(** [isolation]: a step labelled [a] leaves every other connection [b] alone. *)
Theorem step_frame s op s' o b :
  Inv s -> step s op = Some (s', o) -> label s op <> Some b -> frame b s s'.
Proof. intros I H. apply (step_confined s op s' o H I). Qed.
