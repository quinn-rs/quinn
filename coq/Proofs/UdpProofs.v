(** Proofs about Model/UdpModel.v: segmentation, GRO coalescing and the receive-side split. *)
From QV Require Import Lib.Tac Lib.Bytes Model.UdpModel.
From Coq Require Import Arith.
Open Scope nat_scope.

Lemma segments_fuel_cons f seg a l :
  segments_fuel (S f) seg (a :: l) =
  option_map (cons (firstn seg (a :: l))) (segments_fuel f seg (skipn seg (a :: l))).
Proof. reflexivity. Qed.

Lemma segments_fuel_nil f seg : segments_fuel f seg [] = Some [].
Proof. destruct f; reflexivity. Qed.

Lemma split_fuel_nil f s : split_fuel f s [] = Some [].
Proof. destruct f; reflexivity. Qed.

Lemma firstn_min_length {A} n (l : list A) : firstn (Nat.min n (length l)) l = firstn n l.
Proof. now rewrite <- firstn_firstn, firstn_all. Qed.

Lemma skipn_min_length {A} n (l : list A) : skipn (Nat.min n (length l)) l = skipn n l.
Proof.
  destruct (Nat.le_gt_cases n (length l)) as [H|H].
  - now rewrite Nat.min_l.
  - rewrite Nat.min_r by lia. rewrite skipn_all. symmetry. apply skipn_all2. lia.
Qed.

(** The receive loop computes exactly the chunking that segmentation offload performs. *)
Lemma split_fuel_eq_segments_fuel fuel stride l :
  split_fuel fuel stride l = segments_fuel fuel stride l.
Proof.
  revert l; induction fuel as [|f IH]; intro l; destruct l as [|a l]; try reflexivity.
  cbn [split_fuel]. rewrite segments_fuel_cons.
  rewrite firstn_min_length, skipn_min_length, IH. reflexivity.
Qed.

Lemma split_eq_segments stride l : split_by_stride stride l = segments stride l.
Proof. apply split_fuel_eq_segments_fuel. Qed.

Lemma run_shape_cons seg x r :
  0 < seg -> run_shape seg (x :: r) -> 0 < length x <= seg /\ run_shape seg r.
Proof.
  intros Hs H. destruct r; cbn [run_shape] in H; [split; [exact H|exact I]|].
  destruct H as [Hx Hr]. split; [lia|exact Hr].
Qed.

Lemma run_shape_bounds seg b :
  0 < seg -> run_shape seg b -> Forall (fun d => 0 < length d <= seg) b.
Proof.
  intros Hs. induction b as [|x r IH]; intros Sh; [constructor|].
  destruct (run_shape_cons seg x r Hs Sh) as [Hx Hr]. constructor; [exact Hx|exact (IH Hr)].
Qed.

Lemma segments_fuel_run_shape s b :
  0 < s -> run_shape s b ->
  forall fuel, length (concat b) <= fuel -> segments_fuel fuel s (concat b) = Some b.
Proof.
  intro Hs. induction b as [|x r IH]; intros Hsh fuel Hf.
  - cbn [concat]. apply segments_fuel_nil.
  - destruct r as [|y r'].
    + cbn [run_shape] in Hsh. cbn [concat] in *. rewrite app_nil_r in *.
      destruct x as [|a x]; [cbn [length] in Hsh; lia|].
      destruct fuel as [|f]; [cbn [length] in Hf; lia|].
      rewrite segments_fuel_cons.
      rewrite firstn_all2 by lia. rewrite skipn_all2 by lia.
      rewrite segments_fuel_nil. reflexivity.
    + destruct Hsh as [Hx Hr].
      change (concat (x :: y :: r')) with (x ++ concat (y :: r')) in *.
      destruct x as [|a x]; [cbn [length] in Hx; lia|].
      destruct fuel as [|f]; [cbn [length app] in Hf; lia|].
      change ((a :: x) ++ concat (y :: r')) with (a :: (x ++ concat (y :: r'))).
      rewrite segments_fuel_cons.
      change (a :: (x ++ concat (y :: r'))) with ((a :: x) ++ concat (y :: r')).
      rewrite firstn_app, skipn_app.
      replace (s - length (a :: x)) with 0 by lia.
      rewrite firstn_all2 by lia. rewrite skipn_all2 by lia.
      cbn [firstn skipn app]. rewrite app_nil_r.
      rewrite IH; [reflexivity|exact Hr|].
      rewrite app_length in Hf. cbn [length] in Hf |- *. lia.
Qed.

Lemma segments_fuel_spec seg :
  0 < seg ->
  forall fuel l, length l <= fuel ->
  exists segs, segments_fuel fuel seg l = Some segs /\ concat segs = l /\ run_shape seg segs.
Proof.
  intros Hs. induction fuel as [|f IH]; intros l Hf.
  - destruct l; [|cbn [length] in Hf; lia]. exists []. repeat split.
  - destruct l as [|a l].
    + exists []. repeat split.
    + rewrite segments_fuel_cons.
      destruct (IH (skipn seg (a :: l))) as [segs' [E [C Sh]]].
      { rewrite skipn_length. cbn [length] in Hf |- *. lia. }
      rewrite E. cbn [option_map]. exists (firstn seg (a :: l) :: segs').
      split; [reflexivity|]. split.
      * cbn [concat]. rewrite C. apply firstn_skipn.
      * destruct segs' as [|y r].
        -- cbn [run_shape]. rewrite firstn_length. cbn [length]. lia.
        -- split; [|exact Sh].
           assert (Hne : skipn seg (a :: l) <> []).
           { intro H0. rewrite H0 in C. cbn [concat] in C.
             assert (0 < length y) by apply (run_shape_cons seg y r Hs Sh).
             destruct y; [cbn [length] in *; lia|discriminate]. }
           assert (seg < length (a :: l)).
           { destruct (Nat.le_gt_cases (length (a :: l)) seg) as [H|H]; [|exact H].
             exfalso. apply Hne. apply skipn_all2. exact H. }
           rewrite firstn_length. lia.
Qed.

Lemma take_run_spec s : 0 < s ->
  forall k l b rest, take_run s k l = (b, rest) -> l = b ++ rest /\ run_shape s b.
Proof.
  intro Hs. induction k as [|k IH]; intros l b rest E.
  - cbn [take_run] in E. inversion E; subst. split; [reflexivity|exact I].
  - destruct l as [|d r].
    + cbn [take_run] in E. inversion E; subst. split; [reflexivity|exact I].
    + cbn [take_run] in E.
      destruct (length d =? s) eqn:Ed.
      * destruct (take_run s k r) as [a b0] eqn:Et. inversion E; subst.
        destruct (IH _ _ _ Et) as [Hr Sh]. apply Nat.eqb_eq in Ed.
        split; [cbn [app]; congruence|].
        destruct a as [|y a']; [cbn [run_shape]; lia|]. split; assumption.
      * destruct ((0 <? length d) && (length d <? s)) eqn:Es.
        -- inversion E; subst. apply andb_true_iff in Es as [E1 E2].
           apply Nat.ltb_lt in E1. apply Nat.ltb_lt in E2.
           split; [reflexivity|]. cbn [run_shape]. lia.
        -- inversion E; subst. split; [reflexivity|exact I].
Qed.

Lemma split_all_gro_fuel fuel : forall choice dgs,
  length dgs <= fuel -> Forall (fun d => d <> []) dgs ->
  split_all (gro_fuel fuel choice dgs) = Some dgs.
Proof.
  induction fuel as [|f IH]; intros choice dgs Hf Hne.
  - destruct dgs; [reflexivity|cbn [length] in Hf; lia].
  - destruct dgs as [|d r]; [reflexivity|].
    cbn [gro_fuel].
    destruct (take_run (length d) (hd 0 choice) r) as [batch rest] eqn:Et.
    inversion Hne as [|? ? Hd Hr]; subst.
    assert (Hs : 0 < length d) by (destruct d; [congruence|cbn [length]; lia]).
    destruct (take_run_spec _ Hs _ _ _ _ Et) as [Hsplit Sh].
    cbn [split_all].
    rewrite split_eq_segments. unfold segments.
    change (d ++ concat batch) with (concat (d :: batch)).
    rewrite (segments_fuel_run_shape (length d) (d :: batch) Hs).
    + rewrite IH.
      * rewrite Hsplit. reflexivity.
      * subst r. cbn [length] in Hf. rewrite app_length in Hf. lia.
      * subst r. apply Forall_app in Hr. tauto.
    + destruct batch as [|y b']; [cbn [run_shape]; lia|]. split; [reflexivity|exact Sh].
    + lia.
Qed.

(** Whatever the kernel chooses to merge, splitting by the reported stride gives the datagrams back. *)
Lemma gro_split_roundtrip choice dgs :
  Forall (fun d => d <> []) dgs -> split_all (gro_coalesce choice dgs) = Some dgs.
Proof. intro H. apply split_all_gro_fuel; [lia|exact H]. Qed.

(** Send to receive: the chunks of a segmented transmit come back however the kernel coalesces them. *)
Lemma split_coalesce_segments seg contents :
  0 < seg ->
  exists segs,
    segments seg contents = Some segs /\
    concat segs = contents /\
    run_shape seg segs /\
    Forall (fun d => 0 < length d <= seg) segs /\
    forall choice, split_all (gro_coalesce choice segs) = Some segs.
Proof.
  intro Hs. destruct (segments_fuel_spec seg Hs (length contents) contents (le_n _)) as [segs [E [C Sh]]].
  exists segs. split; [exact E|]. split; [exact C|]. split; [exact Sh|]. split.
  - exact (run_shape_bounds _ _ Hs Sh).
  - intro choice. apply gro_split_roundtrip.
    eapply Forall_impl; [|exact (run_shape_bounds _ _ Hs Sh)].
    intros d Hd ->. cbn [length] in Hd. lia.
Qed.

Lemma split_terminates stride data :
  0 < stride -> exists l, split_by_stride stride data = Some l /\ concat l = data.
Proof.
  intro Hs. rewrite split_eq_segments.
  destruct (segments_fuel_spec stride Hs (length data) data (le_n _)) as [segs [E [C _]]].
  exists segs. split; assumption.
Qed.

Lemma split_fuel_stride_zero fuel data : data <> [] -> split_fuel fuel 0 data = None.
Proof.
  intro Hne. induction fuel as [|f IH]; destruct data as [|a l]; try congruence; try reflexivity.
  cbn [split_fuel Nat.min firstn skipn]. rewrite IH. reflexivity.
Qed.

(** With a zero stride on a non-empty message the loop makes no progress (kernel assumption:
    UDP_GRO never reports 0). *)
Lemma split_stride_zero_hangs data : data <> [] -> split_by_stride 0 data = None.
Proof. apply split_fuel_stride_zero. Qed.

Lemma segments_single seg contents :
  contents <> [] -> length contents <= seg -> segments seg contents = Some [contents].
Proof.
  intros Hne Hl. unfold segments. destruct contents as [|a l]; [congruence|].
  cbn [length]. rewrite segments_fuel_cons.
  rewrite firstn_all2 by exact Hl. rewrite skipn_all2 by exact Hl.
  rewrite segments_fuel_nil. reflexivity.
Qed.

Lemma effective_none_iff_single seg contents segs :
  0 < seg -> contents <> [] -> segments seg contents = Some segs ->
  (effective_segment_size (Some seg) (length contents) = None <-> length segs = 1).
Proof.
  intros Hs Hne E. unfold effective_segment_size.
  destruct (length contents <=? seg) eqn:El.
  - apply Nat.leb_le in El. rewrite (segments_single _ _ Hne El) in E. inversion E; subst.
    split; reflexivity.
  - apply Nat.leb_gt in El. split; [discriminate|]. intro H1. exfalso.
    destruct (segments_fuel_spec seg Hs (length contents) contents (le_n _)) as [segs' [E' [C Sh]]].
    unfold segments in E. rewrite E in E'. inversion E'; subst segs'.
    destruct segs as [|x [|y r]]; cbn [length] in H1; try lia.
    cbn [concat run_shape] in *. rewrite app_nil_r in C. subst x. lia.
Qed.

(** The shortcut of [effective_segment_size] never changes the datagrams that are sent. *)
Lemma transmit_datagrams_eq_segments seg contents :
  0 < seg -> contents <> [] ->
  transmit_datagrams (Some seg) contents = segments seg contents.
Proof.
  intros Hs Hne. unfold transmit_datagrams, effective_segment_size.
  destruct (length contents <=? seg) eqn:El; [|reflexivity].
  apply Nat.leb_le in El. symmetry. apply segments_single; assumption.
Qed.

Lemma transmit_datagrams_none contents : transmit_datagrams None contents = Some [contents].
Proof. reflexivity. Qed.
