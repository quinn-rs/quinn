(** Model/RetireQueue.v (C03): the queue of pending RETIRE_CONNECTION_ID frames is NOT bounded for
    the code as found ([fixed = false], [fx] below): the [Err(InsertError::Retired)] path pushes one
    entry per frame unchecked.  Proved: the refutation, the bound [10 * LEN + 4] plus one per frame
    answered on that path, and [10 * LEN + 4] for the repaired arm. *)
From QV Require Import Lib.Tac Lib.Corr Model.CidQueue Model.RetireQueue Proofs.CidQueueProofs.
Import RetireQueue.
Open Scope Z_scope.

Lemma stale_frames_grow L : forall n s,
  0 < CidQueue.offset (q s) ->
  exists s', run false L true false s (repeat (Frame 0 0 7) n) = Continue s' /\
             pending s' = pending s + Z.of_nat n /\ q s' = q s.
Proof.
  induction n as [|n IH]; intros s Hoff; cbn [repeat run].
  - exists s. split; [reflexivity|]. split; [lia|reflexivity].
  - unfold new_connection_id. cbn [negb andb]. cbn [Z.ltb Z.compare].
    unfold CidQueue.insert. destruct (0 <? CidQueue.offset (q s)) eqn:E; [|lia].
    destruct (IH (mk (q s) (pending s + 1) (retired_hits s + 1))) as (s' & Hr & Hp & Hq);
      [exact Hoff|].
    exists s'. split; [exact Hr|]. cbn [pending q] in *. split; [lia|exact Hq].
Qed.

(** Well-formed frames that the arm accepts and that queue more than [n] entries (at the literal
    5: the first frame is evaluated). *)
Lemma retire_queue_unbounded : forall n : nat,
  exists os s', run false 5 true false (init 5 0) os = Continue s' /\ Z.of_nat n < pending s'.
Proof.
  intros n.
  assert (H1 : exists s1, new_connection_id false 5 true false (init 5 0) 1 1 1 = Continue s1 /\
                          0 < CidQueue.offset (q s1) /\ pending s1 = 1).
  { eexists. vm_compute. repeat split; reflexivity. }
  destruct H1 as (s1 & Hs1 & Hoff & Hp).
  destruct (stale_frames_grow 5 n s1 Hoff) as (s' & Hr & Hp' & _).
  exists (Frame 1 1 1 :: repeat (Frame 0 0 7) n), s'. cbn [run]. rewrite Hs1. split; [exact Hr|lia].
Qed.

Definition wf_op (o : op) : Prop := match o with Frame _ rpt _ => 0 <= rpt | Drain _ => True end.

Section Bound.
Variable L : Z.
Hypothesis HL : 0 < L.

(** [MAX_PENDING_RETIRED_CIDS] is checked only where [insert] retires a range; the switch away
    from the handshake CID ([next], on a server) adds up to [L - 1] entries unchecked, once; before
    the repair so does every frame answered on the Retired path. *)
Definition bound (fx : bool) (s : t) : Z :=
  max_pending L + (if fx then 0 else retired_hits s)
  + (if CidQueue.offset (q s) =? 0 then 0 else L - 1).

Record RInv (fx : bool) (s : t) : Prop := {
  r_q : exists acc, Inv L (q s) acc;
  r_p : 0 <= pending s <= bound fx s;
  r_h : 0 <= retired_hits s
}.

Lemma rinv_mk (fx : bool) q' p h acc :
  Inv L q' acc -> 0 <= h ->
  0 <= p <= max_pending L + (if fx then 0 else h) + (if CidQueue.offset q' =? 0 then 0 else L - 1) ->
  RInv fx (mk q' p h).
Proof. intros HI Hh Hp. constructor; [exists acc; exact HI|exact Hp|exact Hh]. Qed.

Lemma frame_inv fx cu sv s seq rpt id :
  RInv fx s -> 0 <= rpt ->
  match new_connection_id fx L cu sv s seq rpt id with
  | Continue s' => RInv fx s'
  | Close c => c = PROTOCOL_VIOLATION \/ c = CONNECTION_ID_LIMIT_ERROR
  | Panic => False
  end.
Proof.
  intros [[acc HI] Hp Hh] Hr. unfold new_connection_id.
  destruct (negb cu); [left; reflexivity|].
  destruct (seq <? rpt) eqn:E; [left; reflexivity|].
  destruct (insert_inv L HL (q s) acc seq rpt id HI ltac:(lia)) as (q' & r & Hins & Hpost).
  rewrite Hins. unfold bound in Hp.
  destruct r as [|lo hi tk| |]; cbn [insert_post] in Hpost.
  - (* Ok(None) *)
    destruct Hpost as (HI' & Ho & _).
    assert (Hsame : RInv fx (mk q' (pending s) (retired_hits s))).
    { apply (rinv_mk _ _ _ _ _ HI' Hh). rewrite Ho. exact Hp. }
    destruct (sv && (CidQueue.active_seq q' =? 0)) eqn:Es; [|exact Hsame].
    destruct (next_inv L HL q' _ HI') as (q'' & rr & Hn & HI'' & Hpn). rewrite Hn.
    apply andb_true_iff in Es. destruct Es as [_ Es]. unfold CidQueue.active_seq in Es.
    destruct rr as [[[tk lo] hi]|]; [|subst q''; exact Hsame].
    apply (rinv_mk _ _ _ _ _ HI'' Hh).
    destruct (CidQueue.offset q'' =? 0) eqn:E2; destruct (CidQueue.offset (q s) =? 0) eqn:E3;
      destruct fx; lia.
  - (* Ok(Some(retired)) *)
    destruct Hpost as ((HI' & _) & Hlo & Hhi & Hle & Hrp).
    destruct (max_pending L <? pending s + (hi - lo)) eqn:Em; [right; reflexivity|].
    assert (Hoff' : 0 < CidQueue.offset q') by (pose proof (i_off _ _ _ HI); lia).
    destruct (sv && (CidQueue.active_seq q' =? 0)) eqn:Es.
    { apply andb_true_iff in Es. destruct Es as [_ Es]. unfold CidQueue.active_seq in Es. lia. }
    apply (rinv_mk _ _ _ _ _ HI' Hh).
    destruct (CidQueue.offset q' =? 0) eqn:E2; destruct fx; lia.
  - (* Err(Retired) *)
    destruct (fx && (max_pending L <=? pending s)) eqn:Em; [right; reflexivity|].
    apply (rinv_mk _ _ _ _ _ HI); [lia|].
    destruct (CidQueue.offset (q s) =? 0); destruct fx; cbn [andb] in Em; lia.
  - right. reflexivity.
Qed.

Lemma drain_inv fx s k : RInv fx s -> RInv fx (drain s k).
Proof.
  intros [[acc HI] Hp Hh]. apply (rinv_mk _ _ _ _ _ HI Hh). unfold bound in Hp. lia.
Qed.

Lemma run_inv fx cu sv : forall os s, RInv fx s -> Forall wf_op os ->
  match run fx L cu sv s os with
  | Continue s' => RInv fx s'
  | Close c => c = PROTOCOL_VIOLATION \/ c = CONNECTION_ID_LIMIT_ERROR
  | Panic => False
  end.
Proof.
  induction os as [|o os IH]; intros s HI Hwf; cbn [run]; [exact HI|].
  inversion Hwf as [|? ? Ho Hos]; subst. destruct o as [seq rpt id|k].
  - pose proof (frame_inv fx cu sv s seq rpt id HI Ho) as H.
    destruct (new_connection_id fx L cu sv s seq rpt id) as [s'| |]; [|exact H|exact H].
    apply IH; assumption.
  - apply IH; [apply drain_inv; exact HI|exact Hos].
Qed.

Lemma init_rinv fx id : RInv fx (init L id).
Proof.
  apply (rinv_mk _ _ _ _ [] (new_inv L HL id)); [lia|].
  unfold max_pending. cbn [CidQueue.new CidQueue.offset]. rewrite Z.eqb_refl. destruct fx; lia.
Qed.

Lemma retire_queue_bound fx cu sv id os :
  Forall wf_op os ->
  match run fx L cu sv (init L id) os with
  | Continue s =>
      0 <= pending s <= max_pending L + (L - 1) + (if fx then 0 else retired_hits s) /\
      0 <= retired_hits s
  | Close c => c = PROTOCOL_VIOLATION \/ c = CONNECTION_ID_LIMIT_ERROR
  | Panic => False
  end.
Proof.
  intros Hwf. pose proof (run_inv fx cu sv os (init L id) (init_rinv fx id) Hwf) as H.
  destruct (run fx L cu sv (init L id) os) as [s| |]; try exact H.
  destruct H as [_ Hp Hh]. unfold bound in Hp. split; [|exact Hh].
  destruct (CidQueue.offset (q s) =? 0); destruct fx; lia.
Qed.

End Bound.

(** the [4] below is [L - 1] at [L = 5]; C03's constant must convert to 5 *)
Lemma retire_queue_bound_lemma L : L = 5 -> forall fx cu sv id os,
  Forall wf_op os ->
  match run fx L cu sv (init L id) os with
  | Continue s => 0 <= pending s <= max_pending L + 4 + retired_hits s
  | Close c => c = PROTOCOL_VIOLATION \/ c = CONNECTION_ID_LIMIT_ERROR
  | Panic => False
  end.
Proof.
  intros -> fx cu sv id os Hwf.
  pose proof (retire_queue_bound 5 eq_refl fx cu sv id os Hwf) as H.
  destruct (run fx 5 cu sv (init 5 id) os) as [s| |]; try exact H. destruct fx; lia.
Qed.

Lemma retire_queue_bounded_lemma L : L = 5 -> forall cu sv id os,
  Forall wf_op os ->
  match run true L cu sv (init L id) os with
  | Continue s => 0 <= pending s <= max_pending L + 4
  | Close c => c = PROTOCOL_VIOLATION \/ c = CONNECTION_ID_LIMIT_ERROR
  | Panic => False
  end.
Proof.
  intros -> cu sv id os Hwf. pose proof (retire_queue_bound 5 eq_refl true cu sv id os Hwf) as H.
  destruct (run true 5 cu sv (init 5 id) os) as [s| |]; try exact H. exact (proj1 H).
Qed.
