(** in_flight_is_sum ([inv]): the path's in-flight counters equal the sums over the tracked packets;
    the debit never underflows. leaves_once ([sp_inv]): a packet taken out is gone. *)
From QV Require Import Lib.Tac Lib.Chk Lib.Corr Proofs.ChkProofs Model.SentPackets Model.InFlight.
Open Scope Z_scope.

Definition pkt_ok (p : pkt) : Prop := p_gen p = GENERATION /\ 0 <= p_size p /\ 0 <= p_ae p.
Definition ents_ok (l : entries) : Prop := Forall (fun e => pkt_ok (snd e)) l.

Lemma forall_delete (P : Z * pkt -> Prop) k l : Forall P l -> Forall P (delete k l).
Proof.
  induction l as [|[k' p] l IH]; cbn [delete]; intro H; [exact H|].
  inversion H; subst. destruct (k' =? k); [assumption|]. constructor; [assumption|apply IH; assumption].
Qed.

Lemma lookup_ok k l q : ents_ok l -> lookup k l = Some q -> pkt_ok q.
Proof.
  induction l as [|[k' p] l IH]; cbn [lookup]; intros H E; [discriminate|].
  inversion H; subst. destruct (k' =? k); [inversion E; subst; assumption|apply IH; assumption].
Qed.

Definition weight (f : pkt -> Z) (p : pkt) : Z := if p_gen p =? GENERATION then f p else 0.
Definition wsum (f : pkt -> Z) (l : entries) : Z := fold_right (fun e a => weight f (snd e) + a) 0 l.

Lemma sum_size_wsum l : sum_size l = wsum p_size l.
Proof. reflexivity. Qed.

Lemma count_ae_wsum l : count_ae l = wsum p_ae l.
Proof. reflexivity. Qed.

Lemma weight_ok f p : pkt_ok p -> weight f p = f p.
Proof. intros (Hg & _). unfold weight. rewrite Hg, Z.eqb_refl. reflexivity. Qed.

Lemma wsum_cons f e l : wsum f (e :: l) = weight f (snd e) + wsum f l.
Proof. reflexivity. Qed.

Lemma wsum_app f l e : wsum f (l ++ [e]) = wsum f l + weight f (snd e).
Proof.
  induction l as [|x l IH]; cbn [app]; [unfold wsum; cbn [fold_right]; lia|].
  rewrite !wsum_cons, IH. lia.
Qed.

Lemma wsum_delete f k l q : lookup k l = Some q -> wsum f (delete k l) = wsum f l - weight f q.
Proof.
  induction l as [|[k' p] l IH]; cbn [lookup delete]; [discriminate|].
  rewrite wsum_cons. cbn [snd]. destruct (k' =? k); intro H.
  - inversion H; subst. lia.
  - rewrite wsum_cons, (IH H). cbn [snd]. lia.
Qed.

Lemma sums_nonneg l : ents_ok l -> 0 <= wsum p_size l /\ 0 <= wsum p_ae l.
Proof.
  induction 1 as [|[k p] l Hp Hl IH]; [unfold wsum; cbn [fold_right]; lia|].
  cbn [snd] in Hp. rewrite !wsum_cons. cbn [snd]. rewrite !(weight_ok _ _ Hp).
  destruct Hp as (_ & ? & ?). lia.
Qed.

Definition ledger (l : entries) (b a : Z) : Prop :=
  ents_ok l /\ b = wsum p_size l /\ a = wsum p_ae l.

Lemma ledger_nonneg l b a : ledger l b a -> 0 <= b /\ 0 <= a.
Proof. intros (Hok & -> & ->). apply sums_nonneg, Hok. Qed.

Lemma ledger_app l b a pn p :
  ledger l b a -> pkt_ok p -> ledger (l ++ [(pn, p)]) (b + p_size p) (a + p_ae p).
Proof.
  intros (Hok & -> & ->) Hp. unfold ledger. rewrite !wsum_app. cbn [snd]. rewrite !(weight_ok _ _ Hp).
  split; [|split; reflexivity]. apply Forall_app. split; [exact Hok|]. constructor; [exact Hp|constructor].
Qed.

Lemma ledger_delete l b a k q :
  ledger l b a -> lookup k l = Some q ->
  pkt_ok q /\ ledger (delete k l) (b - p_size q) (a - p_ae q).
Proof.
  intros (Hok & -> & ->) Hl. pose proof (lookup_ok _ _ _ Hok Hl) as Hq. split; [exact Hq|].
  unfold ledger. rewrite !(wsum_delete _ _ _ _ Hl), !(weight_ok _ _ Hq).
  split; [|split; reflexivity]. apply forall_delete, Hok.
Qed.

Definition inv (s : st) : Prop :=
  ledger (ents (sp s)) (bytes s) (aec s) /\ bytes s <= U64MAX /\ aec s <= U64MAX.

Lemma insert_some s pn p s' :
  SentPackets.insert s pn p = Some s' -> s' = SentPackets.mk (ents s ++ [(pn, p)]) (Some pn).
Proof.
  unfold SentPackets.insert. destruct (ents s) as [|e l].
  - intro H; inversion H; reflexivity.
  - destruct (last s) as [x|]; [destruct (pn <=? x); [discriminate|]|]; intro H; inversion H; reflexivity.
Qed.

Lemma remove_some s k q s' :
  SentPackets.remove s k = (Some q, s') ->
  lookup k (ents s) = Some q /\ s' = SentPackets.mk (delete k (ents s)) (last s).
Proof.
  unfold SentPackets.remove. destruct (lookup k (ents s)) as [p|]; intro H; inversion H; subst.
  split; reflexivity.
Qed.

Lemma remove_none s k s' : SentPackets.remove s k = (None, s') -> s' = s.
Proof.
  unfold SentPackets.remove. destruct (lookup k (ents s)) as [p|]; intro H; inversion H; reflexivity.
Qed.

Lemma debit_tracked spx t la b a q :
  pkt_ok q -> p_size q <= b <= U64MAX -> p_ae q <= a <= U64MAX ->
  debit (mk spx t la b a) q = inl (true, mk spx t la (b - p_size q) (a - p_ae q)).
Proof.
  intros (Hg & Hs & Ha) Hb Hc. unfold debit. cbn [bytes aec sp tail largest_ae].
  rewrite Hg, Z.eqb_refl. unfold csub. rewrite !chk_in_range by lia. reflexivity.
Qed.

Definition sent_wf (p : pkt) : Prop := pkt_ok p.

Lemma insert_inv spx t la b a pn p sp' :
  SentPackets.insert spx pn p = Some sp' -> ledger (ents spx) b a -> pkt_ok p ->
  b + p_size p <= U64MAX -> a + p_ae p <= U64MAX ->
  inv (mk sp' t la (b + p_size p) (a + p_ae p)).
Proof.
  intros Ei Hl Hp Hb Ha. apply insert_some in Ei as ->.
  split; [apply ledger_app; assumption|split; assumption].
Qed.

(** [sent] fails before any debit, or tracks the packet, or tracks it and forgets the oldest
    packet of the tail: removed before the insertion, debited after it *)
Inductive sent_view (s : st) (pn : Z) (p : pkt) : res -> Prop :=
| sent_fails e : e <> 2 -> sent_view s pn p (inr e)
| sent_tracks sp' t la :
    SentPackets.insert (sp s) pn p = Some sp' ->
    bytes s + p_size p <= U64MAX -> aec s + p_ae p <= U64MAX ->
    sent_view s pn p (inl (mk sp' t la (bytes s + p_size p) (aec s + p_ae p)))
| sent_forgets k q spr sp' :
    SentPackets.remove (sp s) k = (Some q, spr) -> SentPackets.insert spr pn p = Some sp' ->
    bytes s + p_size p <= U64MAX -> aec s + p_ae p <= U64MAX ->
    sent_view s pn p
      (match debit (mk sp' (tail s) (largest_ae s) (bytes s + p_size p) (aec s + p_ae p)) q with
       | inl (_, s4) => inl s4
       | inr e => inr e
       end).

Lemma sent_decode s pn p : sent_view s pn p (sent s pn p).
Proof.
  unfold sent, credit.
  destruct (cadd (bytes s) (p_size p)) as [b1|] eqn:Eb; [|apply sent_fails; discriminate].
  destruct (cadd (aec s) (p_ae p)) as [a1|] eqn:Ea; [|apply sent_fails; discriminate].
  apply cadd_some in Eb as [-> Hb1]. apply cadd_some in Ea as [-> Ha1].
  cbn [sp tail largest_ae bytes aec].
  destruct (nz (p_ae p)); [|destruct (MAX_TAIL <? tail s)].
  2:{ destruct (first_after (sp s) (largest_ae s)) as [k|]; [|apply sent_fails; discriminate].
      destruct (SentPackets.remove (sp s) k) as [[q|] spr] eqn:Er; [|apply sent_fails; discriminate].
      cbn [sp tail largest_ae bytes aec].
      destruct (SentPackets.insert spr pn p) as [sp'|] eqn:Ei; [|apply sent_fails; discriminate].
      apply (sent_forgets s pn p k q spr sp' Er Ei); lia. }
  all: cbn [sp]; destruct (SentPackets.insert (sp s) pn p) as [sp'|] eqn:Ei; [|apply sent_fails; discriminate].
  all: apply sent_tracks; [exact Ei|lia|lia].
Qed.

(** [inr 2] is the underflow of an in-flight counter *)
Lemma sent_inv s pn p :
  inv s -> pkt_ok p -> match sent s pn p with inl s' => inv s' | inr e => e <> 2 end.
Proof.
  intros (Hl & Hbm & Ham) Hp.
  destruct (sent_decode s pn p) as [e He|sp' t la Ei Hb Ha|k q spr sp' Er Ei Hb Ha].
  - exact He.
  - eapply insert_inv; eassumption.
  - apply remove_some in Er as [Hlk ->].
    destruct (ledger_delete _ _ _ _ _ Hl Hlk) as [Hq Hl']. destruct (ledger_nonneg _ _ _ Hl') as [Hb0 Ha0].
    pose proof Hp as (_ & Hps & Hpa). pose proof Hq as (_ & Hqs & Hqa).
    rewrite (debit_tracked sp' (tail s) (largest_ae s) _ _ q Hq) by lia.
    replace (bytes s + p_size p - p_size q) with (bytes s - p_size q + p_size p) by lia.
    replace (aec s + p_ae p - p_ae q) with (aec s - p_ae q + p_ae p) by lia.
    eapply insert_inv; [exact Ei|exact Hl'|exact Hp|lia|lia].
Qed.

Lemma take_inv s pn :
  inv s -> match take s pn with inl (_, s') => inv s' | inr e => e <> 2 end.
Proof.
  intros Hi. unfold take.
  destruct (SentPackets.remove (sp s) pn) as [[q|] spr] eqn:Er; [|exact Hi].
  destruct Hi as (Hl & Hbm & Ham). apply remove_some in Er as [Hlk ->].
  destruct (ledger_delete _ _ _ _ _ Hl Hlk) as [Hq Hl']. destruct (ledger_nonneg _ _ _ Hl') as [Hb0 Ha0].
  destruct (_ <? 0); [discriminate|].
  pose proof Hq as (_ & Hqs & Hqa).
  rewrite (debit_tracked _ _ (largest_ae s) _ _ q Hq) by lia.
  split; [exact Hl'|cbn [bytes aec]; lia].
Qed.

Lemma debit_all_ledger l : forall spx t la b a,
  ledger l b a -> b <= U64MAX -> a <= U64MAX ->
  debit_all (mk spx t la b a) l = inl (mk spx t la 0 0).
Proof.
  induction l as [|[k q] l IH]; intros spx t la b a Hl Hbm Ham; cbn [debit_all].
  - destruct Hl as (_ & -> & ->). reflexivity.
  - destruct (ledger_delete _ _ _ k q Hl) as [Hq Hl']; [cbn [lookup]; rewrite Z.eqb_refl; reflexivity|].
    cbn [delete] in Hl'. rewrite Z.eqb_refl in Hl'.
    destruct (ledger_nonneg _ _ _ Hl') as [Hb0 Ha0]. pose proof Hq as (_ & Hqs & Hqa).
    rewrite (debit_tracked spx t la _ _ q Hq) by lia. apply IH; [exact Hl'|lia|lia].
Qed.

Lemma empty_inv t la : inv (mk SentPackets.empty t la 0 0).
Proof. split; [split; [constructor|split; reflexivity]|unfold U64MAX; cbn [bytes aec]; lia]. Qed.

Lemma discard_inv s : inv s -> match discard s with inl s' => inv s' | inr e => e <> 2 end.
Proof.
  intros (Hl & Hbm & Ham). unfold discard. rewrite (debit_all_ledger _ _ _ _ _ _ Hl Hbm Ham).
  apply empty_inv.
Qed.

(** as [PacketBuilder::finish_and_track] stamps them *)
Definition op_wf (op : list Z) : Prop :=
  match op with
  | [0; _; size; _; gen] => gen = GENERATION /\ 0 <= size
  | _ => True
  end.

Inductive step_view (s : st) : list Z -> (st * list Z) + Z -> Prop :=
| view_sent pn size ae gen :
    step_view s [0; pn; size; ae; gen]
      (match sent s pn (size, b2z (nz ae), gen) with inl s' => inl (s', obs 0 s') | inr e => inr e end)
| view_take k pn :
    step_view s [k; pn]
      (if (1 <=? k) && (k <=? 3)
       then match take s pn with inl (r, s') => inl (s', obs r s') | inr e => inr e end
       else inl (s, [-1]))
| view_discard :
    step_view s [4]
      (match discard s with
       | inl s' => inl (s', obs (Z.of_nat (length (ents (sp s)))) s')
       | inr e => inr e
       end)
| view_skip op : step_view s op (inl (s, [-1])).

(** The opcode is matched as a binary numeral, hence the case analysis down to the bits of 4. *)
Lemma step_decode s op : step_view s op (step s op).
Proof.
  destruct op as [|c [|a1 [|a2 [|a3 [|a4 [|a5 rest]]]]]]; try apply view_skip.
  all: destruct c as [|c|c]; try solve [constructor].
  all: destruct c as [c|c|]; try solve [constructor].
  all: destruct c as [c|c|]; try solve [constructor].
  all: destruct c as [c|c|]; constructor.
Qed.

Lemma step_inv s op :
  op_wf op -> inv s -> match step s op with inl (s', _) => inv s' | inr e => e <> 2 end.
Proof.
  intros Hwf Hi. destruct (step_decode s op) as [pn size ae gen|k pn| |op].
  - destruct Hwf as [Hg Hs].
    assert (pkt_ok (size, b2z (nz ae), gen)) as Hp.
    { split; [exact Hg|split; [exact Hs|apply b2z_nonneg]]. }
    pose proof (sent_inv s pn _ Hi Hp) as H. destruct (sent s pn _); exact H.
  - destruct ((1 <=? k) && (k <=? 3)); [|exact Hi].
    pose proof (take_inv s pn Hi) as H. destruct (take s pn) as [[r s']|e]; exact H.
  - pose proof (discard_inv s Hi) as H. destruct (discard s); exact H.
  - exact Hi.
Qed.

Lemma steps_invariant (P : list Z -> Prop) (Inv : st -> Prop) (E : Z -> Prop) :
  (forall s op, P op -> Inv s -> match step s op with inl (s', _) => Inv s' | inr e => E e end) ->
  forall l s, Forall P l -> Inv s -> match steps s l with inl s' => Inv s' | inr e => E e end.
Proof.
  intros Hstep. induction l as [|op l IH]; intros s Hwf Hi; cbn [steps]; [exact Hi|].
  inversion Hwf as [|? ? Hop Hl]; subst. specialize (Hstep s op Hop Hi).
  destruct (step s op) as [[s' o]|e]; [exact (IH s' Hl Hstep)|exact Hstep].
Qed.

Theorem in_flight_is_sum : forall l,
  Forall op_wf l ->
  match steps init l with
  | inl s => bytes s = sum_size (ents (sp s)) /\ aec s = count_ae (ents (sp s))
  | inr e => e <> 2
  end.
Proof.
  intros l Hwf. pose proof (steps_invariant op_wf inv (fun e => e <> 2) step_inv l init Hwf (empty_inv 0 0)) as H.
  destruct (steps init l) as [s|e]; [|exact H]. destruct H as ((_ & Hb & Ha) & _).
  rewrite sum_size_wsum, count_ae_wsum. split; [exact Hb|exact Ha].
Qed.

Theorem all_acked_implies_zero : forall l s,
  Forall op_wf l -> steps init l = inl s -> ents (sp s) = [] -> bytes s = 0 /\ aec s = 0.
Proof.
  intros l s Hwf E Hnil. pose proof (in_flight_is_sum l Hwf) as H. rewrite E, Hnil in H. exact H.
Qed.

Fixpoint incr (l : entries) : Prop :=
  match l with
  | [] => True
  | (k, _) :: l' => Forall (fun e => k < fst e) l' /\ incr l'
  end.

(** none above the last number sent, so a number that left cannot come back *)
Definition sp_inv (s : SentPackets.st) : Prop :=
  incr (ents s) /\
  (ents s <> [] -> exists x, SentPackets.last s = Some x /\ Forall (fun e => fst e <= x) (ents s)).

Lemma incr_delete k l : incr l -> incr (delete k l).
Proof.
  induction l as [|[k' p] l IH]; cbn [delete incr]; intro H; [exact H|].
  destruct H as [Hf Hi]. destruct (k' =? k); [assumption|]. cbn [incr].
  split; [apply forall_delete; assumption|apply IH; assumption].
Qed.

Lemma lookup_none_gt k l : Forall (fun e => k < fst e) l -> lookup k l = None.
Proof.
  induction 1 as [|[k' p] l Hk Hl IH]; cbn [lookup]; [reflexivity|].
  cbn [fst] in Hk. destruct (k' =? k) eqn:E; [lia|exact IH].
Qed.

Lemma lookup_delete_none k l : incr l -> lookup k (delete k l) = None.
Proof.
  induction l as [|[k' p] l IH]; cbn [delete incr]; intro H; [reflexivity|].
  destruct H as [Hf Hi]. destruct (k' =? k) eqn:E.
  - assert (k' = k) by lia. subst. apply lookup_none_gt; assumption.
  - cbn [lookup]. rewrite E. apply IH; assumption.
Qed.

Lemma incr_app l pn p : incr l -> Forall (fun e => fst e < pn) l -> incr (l ++ [(pn, p)]).
Proof.
  induction l as [|[k q] l IH]; cbn [app incr]; intros Hi Hf; [split; [constructor|exact I]|].
  destruct Hi as [Hk Hi]. inversion Hf as [|? ? Hkp Hfl]; subst. cbn [fst] in Hkp.
  split; [apply Forall_app; split; [assumption|repeat constructor; cbn [fst]; lia]|apply IH; assumption].
Qed.

Lemma sp_insert_inv s pn p s' : sp_inv s -> SentPackets.insert s pn p = Some s' -> sp_inv s'.
Proof.
  intros [Hi Hl] H.
  assert (Forall (fun e => fst e < pn) (ents s)) as Hlt.
  { unfold SentPackets.insert in H. destruct (ents s) as [|e l]; [constructor|].
    destruct Hl as (x & Hx & Hle); [discriminate|]. rewrite Hx in H.
    destruct (pn <=? x) eqn:E; [discriminate|]. eapply Forall_impl; [|exact Hle]. cbn beta. intros a Ha. lia. }
  apply insert_some in H as ->. split; cbn [ents SentPackets.last]; [apply incr_app; assumption|].
  intros _. exists pn. split; [reflexivity|]. apply Forall_app. split.
  - eapply Forall_impl; [|exact Hlt]. cbn beta. intros a Ha. lia.
  - repeat constructor. cbn [fst]. lia.
Qed.

Lemma sp_remove_inv s k r s' : sp_inv s -> SentPackets.remove s k = (r, s') -> sp_inv s'.
Proof.
  intros Hi H. destruct r as [q|]; [|apply remove_none in H as ->; exact Hi].
  destruct Hi as [Hi Hl]. apply remove_some in H as [E ->].
  split; cbn [ents SentPackets.last]; [apply incr_delete; assumption|].
  intros _. destruct Hl as (x & Hx & Hle).
  { intro Hnil. rewrite Hnil in E. discriminate. }
  exists x. split; [assumption|apply forall_delete; assumption].
Qed.

Lemma debit_sp s q d s' : debit s q = inl (d, s') -> sp s' = sp s.
Proof.
  unfold debit. destruct (p_gen q =? GENERATION); [|intro H; inversion H; reflexivity].
  destruct (csub (bytes s) (p_size q)); [|discriminate]. destruct (csub (aec s) (p_ae q)); [|discriminate].
  intro H; inversion H; reflexivity.
Qed.

Lemma sent_sp_inv s pn p :
  sp_inv (sp s) -> match sent s pn p with inl s' => sp_inv (sp s') | inr _ => True end.
Proof.
  intros Hi. destruct (sent_decode s pn p) as [e He|sp' t la Ei _ _|k q spr sp' Er Ei _ _].
  - exact I.
  - exact (sp_insert_inv _ _ _ _ Hi Ei).
  - apply (sp_remove_inv _ _ _ _ Hi) in Er. apply (sp_insert_inv _ _ _ _ Er) in Ei.
    destruct (debit _ q) as [[d s4]|e] eqn:Ed; [|exact I]. rewrite (debit_sp _ _ _ _ Ed). exact Ei.
Qed.

Lemma take_some s pn code s' :
  take s pn = inl (code, s') ->
  (code = 0 /\ s' = s) \/ (code <> 0 /\ exists q, SentPackets.remove (sp s) pn = (Some q, sp s')).
Proof.
  unfold take. destruct (SentPackets.remove (sp s) pn) as [[q|] spr].
  2:{ intro H; inversion H. left. split; reflexivity. }
  destruct (_ <? 0); [discriminate|].
  destruct (debit _ q) as [[d s4]|e] eqn:Ed; [|discriminate]. apply debit_sp in Ed.
  destruct d; intro H; inversion H; subst; right; (split; [lia|]); exists q; rewrite Ed; reflexivity.
Qed.

(** a second removal finds nothing and leaves every counter unchanged *)
Theorem leaves_once : forall s pn code s',
  sp_inv (sp s) -> take s pn = inl (code, s') -> code <> 0 ->
  take s' pn = inl (0, s').
Proof.
  intros s pn code s' [Hi _] H Hc. apply take_some in H as [[H0 _]|(_ & q & Hr)]; [contradiction|].
  apply remove_some in Hr as [_ Hs]. unfold take, SentPackets.remove.
  rewrite Hs. cbn [ents]. rewrite (lookup_delete_none pn _ Hi). reflexivity.
Qed.

Lemma take_sp_inv s pn :
  sp_inv (sp s) -> match take s pn with inl (_, s') => sp_inv (sp s') | inr _ => True end.
Proof.
  intros Hi. destruct (take s pn) as [[code s']|e] eqn:E; [|exact I].
  apply take_some in E as [[_ ->]|(_ & q & Hr)]; [exact Hi|exact (sp_remove_inv _ _ _ _ Hi Hr)].
Qed.

Lemma debit_all_sp l : forall s s', debit_all s l = inl s' -> sp s' = sp s.
Proof.
  induction l as [|[k q] l IH]; intros s s' H; cbn [debit_all] in H; [inversion H; reflexivity|].
  destruct (debit s q) as [[d s1]|e] eqn:Ed; [|discriminate].
  rewrite (IH _ _ H). exact (debit_sp _ _ _ _ Ed).
Qed.

Lemma empty_sp_inv : sp_inv SentPackets.empty.
Proof. split; [exact I|]. intro H; contradiction. Qed.

Lemma step_sp_inv s op :
  sp_inv (sp s) -> match step s op with inl (s', _) => sp_inv (sp s') | inr _ => True end.
Proof.
  intros Hi. destruct (step_decode s op) as [pn size ae gen|k pn| |op].
  - pose proof (sent_sp_inv s pn (size, b2z (nz ae), gen) Hi) as H. destruct (sent s pn _); exact H.
  - destruct ((1 <=? k) && (k <=? 3)); [|exact Hi].
    pose proof (take_sp_inv s pn Hi) as H. destruct (take s pn) as [[r s']|e]; exact H.
  - destruct (discard s) as [s'|e] eqn:Ed; [|exact I].
    apply debit_all_sp in Ed. rewrite Ed. exact empty_sp_inv.
  - exact Hi.
Qed.

Theorem leaves_once_reachable : forall l s pn code s',
  steps init l = inl s -> take s pn = inl (code, s') -> code <> 0 ->
  take s' pn = inl (0, s').
Proof.
  intros l s pn code s' Hs Ht Hc. apply (leaves_once s pn code s'); [|exact Ht|exact Hc].
  pose proof (steps_invariant (fun _ => True) (fun s => sp_inv (sp s)) (fun _ => True)
                (fun s op _ => step_sp_inv s op) l init) as H.
  rewrite Hs in H. apply H; [apply Forall_forall; intros; exact I|exact empty_sp_inv].
Qed.
