(** Lifecycle: the vocabulary of the statements in Props/C08.v; what every step guarantees
    ([effect], proved once over all operations through the three shapes of a step); runs; the
    Idle timer. *)
From QV Require Import Lib.Tac Lib.Corr Model.Lifecycle Proofs.LifecycleInv Proofs.RunInduction.
Open Scope Z_scope.

(** instant and PTO the environment supplied to an operation that can close the connection *)
Definition op_time (o : op) : Z :=
  match o with
  | OpClose now _ _ | OpPacket now _ _ _ _ | OpTimeout now | OpTransmit now _ => now
  | _ => 0
  end.
Definition op_pto (o : op) : Z :=
  match o with
  | OpClose _ _ pto => pto
  | OpPacket _ _ _ pc _ => pc
  | OpTransmit _ e => pto_tx e
  | _ => 0
  end.

Definition timed (o : op) : bool :=
  match o with OpClose _ _ _ | OpPacket _ _ _ _ _ | OpTimeout _ | OpTransmit _ _ => true | _ => false end.
Fixpoint mono (t : Z) (h : list op) : bool :=
  match h with
  | [] => true
  | o :: r => if timed o then (t <=? op_time o) && mono (op_time o) r else mono t r
  end.

(** idle-timeout changes never enlarge the timeout of an armed Idle timer (false only for a
    0-RTT client whose remembered peer parameters carried a smaller max_idle_timeout than the
    real ones, see the note in Props/C08.v) *)
Definition stable (s : state) (o : op) : bool :=
  match o with
  | OpPeerParams p =>
      match t_idle s with
      | None => true
      | Some _ =>
          match idle_timeout s, negotiate (cfg_idle s) p with
          | Some i, Some i' => i' <=? i
          | _, _ => false
          end
      end
  | _ => true
  end.
Fixpoint stable_run (s : state) (h : list op) : bool :=
  match h with [] => true | o :: r => stable s o && stable_run (step' s o) r end.

Definition rx_auth (s : state) (o : op) : bool :=
  match o with
  | OpPacket _ p _ _ _ => Lifecycle.authed p && negb (is_closed (st s))
  | _ => false
  end.
Fixpoint rx_times (s : state) (h : list op) : list Z :=
  match h with
  | [] => []
  | o :: r => (if rx_auth s o then [op_time o] else []) ++ rx_times (step' s o) r
  end.

Definition op_pto_idle (o : op) : Z :=
  match o with
  | OpPacket _ _ pi _ _ => pi
  | OpTransmit _ e => pto_tx e
  | _ => 0
  end.
Definition restarts (s : state) (o : op) : bool :=
  match o with
  | OpPacket _ p _ _ _ => Lifecycle.authed p && negb (is_closed (st s))
  | OpTransmit _ e => ack_eliciting e && data e && permit_idle_reset s && negb (is_closed (st s))
  | _ => false
  end.

Definition has_keys (e : txenv) (sp : Z) : bool :=
  if sp =? 0 then keys_i e else if sp =? 1 then keys_h e else if sp =? 2 then keys_d e else false.

Lemma negotiate_comm : forall x y, negotiate x y = negotiate y x.
Proof.
  intros [a|] [b|]; unfold negotiate; try reflexivity.
  destruct (a =? 0) eqn:A, (b =? 0) eqn:B; try reflexivity. now rewrite Z.min_comm.
Qed.
Lemma negotiate_absent : forall x y, absent x = true -> negotiate x y = negotiate None y.
Proof.
  intros [a|] [b|] H; unfold negotiate, absent in *; try reflexivity; rewrite H; reflexivity.
Qed.
Lemma negotiate_none : forall x y, negotiate x y = None <-> absent x = true /\ absent y = true.
Proof.
  intros [a|] [b|]; unfold negotiate, absent;
    repeat match goal with |- context [?v =? 0] => destruct (v =? 0) end; intuition discriminate.
Qed.
Lemma negotiate_min : forall a b, a <> 0 -> b <> 0 ->
  negotiate (Some a) (Some b) = Some (1000 * Z.min a b).
Proof.
  intros a b A B. unfold negotiate. apply Z.eqb_neq in A, B. now rewrite A, B.
Qed.
Lemma negotiate_one : forall a y, a <> 0 -> absent y = true -> negotiate (Some a) y = Some (1000 * a).
Proof.
  intros a [b|] A Y; unfold negotiate, absent in *; apply Z.eqb_neq in A; now rewrite A, ?Y.
Qed.

(** the clauses of [Inv] on fields that no other clause and no step fact reads *)
Definition timers_ok (s : state) : Prop :=
  (is_closed (st s) = true -> t_idle s = None /\ t_ka s = None) /\
  (is_closed (st s) = false -> close s = false).

Lemma inv_timers_ok : forall s, Inv s -> timers_ok s.
Proof. intros s H. split; apply H. Qed.

Definition kept_or_taken (e e' : option reason) : Prop := e' = e \/ e' = None.

Definition drained_events (s : state) : Z := if is_drained (st s) then 1 else 0.

Definition drain_ok (s s' : state) (taken : Z) : Prop :=
  taken + epq s' + drained_events s = epq s + drained_events s' /\
  drained_events s <= drained_events s'.

Definition can_report (s : state) : bool :=
  negb (is_closed (st s)) || match error s with Some _ => true | None => false end.

(** [t]: the Close deadline if the step closes; [late]: what holds if it records TimedOut *)
Set Implicit Arguments.
Record effect (s s' : state) (t : Z) (o : out) (late : Prop) : Prop := {
  ef_inv : Inv s';
  ef_closed : is_closed (st s) = true ->
    is_closed (st s') = true /\ kept_or_taken (error s) (error s');
  ef_lost : forall r, o = OLost r -> error s = Some r /\ error s' = None;
  (* a report uses up the ability to report, and no step brings it back *)
  ef_report : (if is_lost o then 1 else 0) + (if can_report s' then 1 else 0)
              <= if can_report s then 1 else 0;
  ef_drain : drain_ok s s' (if is_epdrained o then 1 else 0);
  ef_timer :
    (is_closed (st s) = false -> is_closing (st s') = true -> t_close s' = Some t) /\
    (is_closing (st s) = true -> is_closing (st s') = true -> t_close s' = t_close s);
  ef_late : error s' = Some RTimedOut -> error s <> Some RTimedOut -> late }.
Unset Implicit Arguments.

(** The three shapes of a step.  Same phase: includes [poll] taking the error and the endpoint
    taking a Drained event. *)
Lemma effect_same : forall s s' t o late, Inv s ->
  is_closing (st s') = is_closing (st s) -> is_drained (st s') = is_drained (st s) ->
  t_close s' = t_close s -> timers_ok s' -> (is_lost o = false -> error s' = error s) ->
  (forall r, o = OLost r -> error s = Some r /\ error s' = None) ->
  (if is_epdrained o then 1 else 0) + epq s' = epq s -> (is_epdrained o = true -> 0 < epq s) ->
  effect s s' t o late.
Proof.
  intros s s' t o late H Cg D Tc [T Cl] E1 L Q P.
  assert (E : kept_or_taken (error s) (error s'))
    by (destruct o; try (left; now apply E1); right; now apply (L r)).
  assert (C : is_closed (st s') = is_closed (st s))
    by (rewrite !closed_split, Cg, D; reflexivity).
  assert (Q' : epq s' = epq s \/ 0 < epq s /\ epq s' = epq s - 1)
    by (destruct (is_epdrained o); [right; split; [auto|lia]|left; lia]).
  split.
  - destruct H as (I1 & _ & I3 & I4 & I5 & _). rewrite C in T, Cl. unfold Inv.
    rewrite C, Cg, Tc.
    split; [|split; [exact T|split; [exact I3|split; [exact I4|split; [|exact Cl]]]]].
    + intros X. apply I1. destruct E; congruence.
    + destruct I5 as [Q0|[Q0 S0]]; [left; lia|]. destruct Q' as [Q'|Q']; [right|left; lia].
      split; [lia|]. rewrite S0 in D. destruct (st s'); try discriminate D. reflexivity.
  - rewrite C. auto.
  - exact L.
  - unfold can_report. rewrite C. destruct o; cbn [is_lost]; try (rewrite E1 by reflexivity; lia).
    destruct (L r eq_refl) as [X ->]. rewrite X, (proj1 H) by congruence. cbn. lia.
  - unfold drain_ok, drained_events. rewrite D. lia.
  - rewrite Cg, Tc. split; [|auto]. intros O X. rewrite (proj1 (open_phase _ O)) in X.
    discriminate X.
  - intros X N. destruct E; congruence.
Qed.

Lemma effect_close : forall s s' t o late, Inv s ->
  is_closed (st s) = false -> is_closing (st s') = true -> error s' <> Some RTimedOut ->
  epq s' = epq s -> t_close s' = Some t -> t_idle s' = None -> t_ka s' = None ->
  is_lost o || is_epdrained o = false -> effect s s' t o late.
Proof.
  intros s s' t o late H O Cg NE Q Tc Ti Tk N. apply orb_false_iff in N. destruct N as [N1 N2].
  destruct (open_phase _ O) as [_ D]. destruct (closing_closed _ Cg) as [_ D'].
  split.
  - apply inv_closing; [exact Cg|]. repeat split; [exact Ti|exact Tk|congruence|].
    rewrite Q. now apply inv_epq0.
  - congruence.
  - intros r ->. discriminate N1.
  - unfold can_report at 2. rewrite N1, O. destruct (can_report s'); cbn; lia.
  - unfold drain_ok, drained_events. rewrite N2, Q, D, D'. lia.
  - split; [auto|]. intros X. apply closing_closed in X. destruct X. congruence.
  - contradiction.
Qed.

Lemma effect_drain : forall s s' t o (late : Prop), Inv s ->
  is_drained (st s) = false -> is_drained (st s') = true ->
  (is_closed (st s) = true -> error s' = error s) ->
  (is_closed (st s) = false -> error s' = Some RTimedOut -> late) ->
  epq s' = epq s + 1 -> t_close s' = None -> t_idle s' = None -> t_ka s' = None ->
  is_lost o || is_epdrained o = false -> effect s s' t o late.
Proof.
  intros s s' t o late H D D' Ec El Q Tc Ti Tk N. apply orb_false_iff in N.
  destruct N as [N1 N2]. destruct (drained_closed _ D') as [C' Cg'].
  split.
  - apply inv_drained; [exact D'|]. rewrite Q, (inv_epq0 s H D). auto.
  - intros C. split; [exact C'|left; auto].
  - intros r ->. discriminate N1.
  - unfold can_report. rewrite N1, C'. destruct (is_closed (st s)); [rewrite Ec by reflexivity|];
      cbn; destruct (error s'); lia.
  - unfold drain_ok, drained_events. rewrite N2, Q, D, D'. lia.
  - split; intros _ X; congruence.
  - intros X N. destruct (is_closed (st s)); [rewrite Ec in X by reflexivity; contradiction|auto].
Qed.

Lemma packet_effect : forall s now p pi pc sr late, Inv s ->
  err_result p && is_closed (st s) = false ->
  effect s (handle_packet s now p pi pc sr) (now + 3 * pc) ONone late.
Proof.
  intros s now p pi pc sr late H G. pose proof (inv_timers_ok s H) as T.
  rewrite handle_packet_eq. unfold hp_norm. destruct (is_closed (st s)) eqn:C.
  - rewrite andb_true_r in G.
    destruct (hp_closed s p C G) as (E & C' & Cg & D).
    rewrite C', D, andb_negb_r. apply effect_same; fields; try easy.
    split; fields; [intros _; exact (proj1 T C)|congruence].
  - pose proof (open_no_error s H C) as En. destruct (open_phase _ C) as [Cg D].
    assert (NT : error (hp_post s p) <> Some RTimedOut)
      by (intros X; apply hp_err_timedout in X; congruence).
    destruct (phase_cases (st (hp_post s p))) as [O'|[Cg'|D']].
    + destruct (hp_open_open s p sr C O') as [E' Cl'].
      destruct (open_phase _ O') as [Cg' D']. rewrite O', D'.
      apply effect_same; fields; try easy; try congruence.
      split; fields; [congruence|]. intros _. rewrite Cl'. exact (proj2 T C).
    + destruct (closing_closed _ Cg') as [C' D']. rewrite C', D'.
      apply effect_close; fields; auto.
    + rewrite D', (proj1 (drained_closed _ D')), D.
      apply effect_drain; fields; auto; congruence.
Qed.

Lemma step_gen_effect : forall g s o, Inv s -> guard s o = true ->
  effect s (fst (step_gen g s o)) (op_time o + 3 * op_pto o) (snd (step_gen g s o))
         (exists now d, o = OpTimeout now /\ t_idle s = Some d /\ d <= now).
Proof.
  intros g s o H G. pose proof (inv_timers_ok s H) as T.
  destruct o as [now code pto|now p pi pc sr|pi|now|other| |now e];
    cbn [step_gen fst snd op_time op_pto]; cbn [guard] in G.
  - unfold close_inner. destruct (is_closed (st s)) eqn:C; [now apply effect_same|].
    apply effect_close; try reflexivity; [exact H|exact C|]. fields.
    rewrite (open_no_error s H C). discriminate.
  - apply packet_effect; [exact H|]. now apply negb_true_iff in G.
  - rewrite set_peer_params_eq. apply effect_same; try easy.
    split; fields; [|apply T].
    intros C. destruct (proj1 T C) as [-> ->]. now destruct (negotiate _ _).
  - destruct (phase_cases (st s)) as [O|[Cg|D]].
    + rewrite (handle_timeout_open s now H O). destruct (expired (t_idle s) now) eqn:X.
      * apply effect_drain; try reflexivity; [exact H|now apply open_phase|congruence|].
        intros _ _. unfold expired in X. destruct (t_idle s) as [d|]; [|discriminate X].
        exists now, d. repeat split. lia.
      * destruct (expired (t_ka s) now); [|now apply effect_same].
        apply effect_same; try easy. split; fields; [congruence|apply T].
    + destruct (closing_closed _ Cg) as [C D]. rewrite (handle_timeout_closed s now H C).
      destruct (expired (t_close s) now); [|now apply effect_same].
      apply effect_drain; try reflexivity; [exact H|exact D|congruence| |]; apply (proj1 T C).
    + destruct (proj1 (inv_drained s D) H) as (_ & _ & Tc & _).
      rewrite (handle_timeout_closed s now H (proj1 (drained_closed _ D))), Tc.
      now apply effect_same.
  - unfold poll. destruct other; [now apply effect_same|].
    destruct (error s) as [r|] eqn:E; [|now apply effect_same].
    apply effect_same; try easy. intros r' X. injection X as <-. auto.
  - unfold poll_endpoint_events. destruct (0 <? epq s) eqn:Q; [|now apply effect_same].
    apply effect_same; cbn [fst snd is_epdrained]; try easy; [fields|]; lia.
  - destruct (transmit_cases g s now e) as [|F D|served fr Cg|O Da]; cbn [fst snd].
    + now apply effect_same.
    + rewrite F in G. apply negb_true_iff in G. cbn [andb] in G.
      apply effect_drain; try reflexivity; [exact H|exact D|congruence|].
      intros _ X. discriminate X.
    + destruct served; [|now apply effect_same].
      apply effect_same; try easy. split; fields; [apply T|reflexivity].
    + rewrite on_sent_eq. unfold close_inner. rewrite O. destruct (conf e =? 1).
      * apply effect_close; try reflexivity; [exact H|exact O| | |]; fields.
        -- rewrite (open_no_error s H O). discriminate.
        -- unfold idle_after, reset_idle_timeout. fields.
           destruct (ack_eliciting e && permit_idle_reset s), (idle_timeout s); reflexivity.
        -- unfold ka_after, reset_keep_alive. fields. now destruct (cfg_ka s).
      * apply effect_same; try easy. split; fields; [congruence|apply T].
Qed.

Lemma step_effect : forall s o, Inv s -> guard s o = true ->
  effect s (step' s o) (op_time o + 3 * op_pto o) (snd (step s o))
         (exists now d, o = OpTimeout now /\ t_idle s = Some d /\ d <= now).
Proof. exact (step_gen_effect false). Qed.

Lemma inv_step : forall s o, Inv s -> guard s o = true -> Inv (step' s o).
Proof. intros s o H G. exact (ef_inv (step_effect s o H G)). Qed.

Lemma close_cannot_report : forall s now code pto, Inv s -> is_closed (st s) = false ->
  can_report (step' s (OpClose now code pto)) = false.
Proof.
  intros s now code pto H C. unfold step', step, can_report. cbn [step_gen fst].
  unfold close_inner. rewrite C. fields. now rewrite (open_no_error s H C).
Qed.

Lemma peer_close_recorded : forall s now r pi pc sr, is_closed (st s) = false ->
  let s' := step' s (OpPacket now (PCloseData r) pi pc sr) in
  error s' = Some (peer_reason r) /\ is_closed (st s') = true.
Proof.
  intros s now r pi pc sr C. unfold step', step. cbn [step_gen fst].
  rewrite handle_packet_eq. unfold hp_norm, hp_post. fields. cbn [process].
  destruct (st s); try discriminate C; fields; auto.
Qed.

Lemma run_snoc : forall s h o, run_state s (h ++ [o]) = step' (run_state s h) o.
Proof. intros. unfold run_state. now rewrite fold_left_app. Qed.

Lemma guarded_app : forall h1 h2 s,
  guarded s (h1 ++ h2) = guarded s h1 && guarded (run_state s h1) h2.
Proof.
  induction h1 as [|o h1 IH]; intros h2 s; [reflexivity|].
  cbn [app guarded run_state fold_left]. rewrite IH. unfold run_state. now rewrite andb_assoc.
Qed.

Lemma not_known_from : forall s h, ~ KnownClassFrom s h -> guarded s h = true.
Proof. intros s h N. unfold KnownClassFrom in N. destruct (guarded s h); congruence. Qed.

Lemma outs_app : forall h1 h2 s,
  outs_from s (h1 ++ h2) = outs_from s h1 ++ outs_from (run_state s h1) h2.
Proof.
  induction h1 as [|o h1 IH]; intros h2 s; [reflexivity|].
  cbn [app outs_from run_state fold_left]. rewrite IH. reflexivity.
Qed.

Lemma count_app : forall f a b, count f (a ++ b) = count f a + count f b.
Proof. induction a as [|x a IH]; intros b; cbn [app count]; [lia|rewrite IH; lia]. Qed.

Lemma count_nonneg : forall f l, 0 <= count f l.
Proof. induction l as [|x l IH]; cbn [count]; [lia|destruct (f x); lia]. Qed.

Lemma guarded_ind : forall P : state -> list op -> Prop,
  (forall s, Inv s -> P s []) ->
  (forall s o h, Inv s -> guard s o = true -> P (step' s o) h -> P s (o :: h)) ->
  forall h s, Inv s -> guarded s h = true -> P s h.
Proof.
  intros P P0 PS. induction h as [|o h IH]; intros s H G; [now apply P0|].
  cbn [guarded] in G. apply andb_true_iff in G. destruct G as [G1 G2].
  apply PS; auto using inv_step.
Qed.

Lemma inv_run : forall h s, Inv s -> guarded s h = true -> Inv (run_state s h).
Proof. apply (guarded_ind (fun s h => Inv (run_state s h))); auto. Qed.

Lemma reach_split : forall s h1 h2, Inv s -> guarded s (h1 ++ h2) = true ->
  Inv (run_state s h1) /\ guarded (run_state s h1) h2 = true.
Proof.
  intros s h1 h2 H G. rewrite guarded_app in G. apply andb_true_iff in G.
  destruct G as [G1 G2]. split; [now apply inv_run|exact G2].
Qed.

Lemma reach_step : forall s h1 o h2, Inv s -> guarded s (h1 ++ o :: h2) = true ->
  Inv (run_state s h1) /\ guard (run_state s h1) o = true /\
  Inv (run_state s (h1 ++ [o])) /\ guarded (run_state s (h1 ++ [o])) h2 = true.
Proof.
  intros s h1 o h2 H G. destruct (reach_split s h1 (o :: h2) H G) as [I0 G0].
  cbn [guarded] in G0. apply andb_true_iff in G0. destruct G0 as [G1 G2].
  rewrite run_snoc. auto using inv_step.
Qed.

Lemma lost_bound : forall h s, Inv s -> guarded s h = true ->
  count is_lost (outs_from s h) <= (if can_report s then 1 else 0).
Proof.
  apply (guarded_ind (fun s h => count is_lost (outs_from s h) <= if can_report s then 1 else 0)).
  - intros s _. cbn [outs_from count]. destruct (can_report s); lia.
  - intros s o h H G IH. cbn [outs_from count]. fold (step' s o).
    pose proof (ef_report (step_effect s o H G)). lia.
Qed.

Lemma lost_none : forall h s, Inv s -> guarded s h = true -> can_report s = false ->
  count is_lost (outs_from s h) = 0.
Proof.
  intros h s H G X. pose proof (lost_bound h s H G) as B. rewrite X in B.
  pose proof (count_nonneg is_lost (outs_from s h)). lia.
Qed.

Lemma lost_is_recorded : forall h s, Inv s -> guarded s h = true -> is_closed (st s) = true ->
  Forall (fun o => forall r, o = OLost r -> error s = Some r) (outs_from s h).
Proof.
  apply (guarded_ind (fun s h => is_closed (st s) = true ->
           Forall (fun o => forall r, o = OLost r -> error s = Some r) (outs_from s h))).
  - constructor.
  - intros s o h H G IH C. pose proof (step_effect s o H G) as F.
    destruct (ef_closed F C) as [C1 Q].
    cbn [outs_from]. constructor; [intros r E; apply (ef_lost F E)|].
    fold (step' s o). eapply Forall_impl; [|exact (IH C1)].
    cbn. intros a Ha r E. specialize (Ha r E). destruct Q as [Q|Q]; congruence.
Qed.

Lemma drained_count : forall h s, Inv s -> guarded s h = true ->
  drain_ok s (run_state s h) (count is_epdrained (outs_from s h)).
Proof.
  apply (guarded_ind (fun s h => drain_ok s (run_state s h) (count is_epdrained (outs_from s h)))).
  - intros s _. split; cbn [run_state fold_left outs_from count]; lia.
  - intros s o h H G [A B]. destruct (ef_drain (step_effect s o H G)) as [A1 B1].
    cbn [outs_from count run_state fold_left]. fold (step' s o) (run_state (step' s o) h).
    split; lia.
Qed.

Lemma drained_once_from : forall h s, Inv s -> guarded s h = true -> is_drained (st s) = false ->
  let s' := run_state s h in
  count is_epdrained (outs_from s h) + epq s' = (if is_drained (st s') then 1 else 0) /\
  count is_epdrained (outs_from s h) <= 1 /\ 0 <= epq s'.
Proof.
  intros h s H G D s'. destruct (drained_count h s H G) as [A _]. fold s' in A.
  unfold drained_events in A. rewrite D, (inv_epq0 s H D) in A.
  pose proof (inv_run h s H G) as (_ & _ & _ & _ & Q & _). fold s' in Q.
  pose proof (count_nonneg is_epdrained (outs_from s h)).
  destruct (is_drained (st s')); repeat split; lia.
Qed.

Lemma drained_stays : forall h s, Inv s -> guarded s h = true -> st s = Drained ->
  st (run_state s h) = Drained.
Proof.
  intros h s H G D. destruct (drained_count h s H G) as [_ B]. unfold drained_events in B.
  rewrite D in B. destruct (st (run_state s h)); cbn in B; try lia. reflexivity.
Qed.

Lemma close_timer_drains : forall s, Inv s -> is_closing (st s) = true ->
  exists d, t_close s = Some d /\
    forall now, d <= now -> st (handle_timeout s now) = Drained /\
                            epq (handle_timeout s now) = epq s + 1.
Proof.
  intros s I C. pose proof I as (_ & _ & I3 & _). destruct (t_close s) as [d|] eqn:T.
  - exists d. split; [reflexivity|]. intros now L.
    rewrite (handle_timeout_closed s now I (proj1 (closing_closed _ C))), T. cbn [expired].
    assert ((d <=? now) = true) as -> by lia. auto.
  - exfalso. apply (I3 C). reflexivity.
Qed.

Lemma drained_silent : forall s, Inv s -> st s = Drained ->
  t_close s = None /\ t_idle s = None /\ t_ka s = None /\
  (forall g now e, poll_transmit_gen g s now e = (s, ONone)) /\
  (forall now, handle_timeout s now = s).
Proof.
  intros s H D.
  assert (D' : is_drained (st s) = true) by (rewrite D; reflexivity).
  destruct (proj1 (inv_drained s D') H) as (Ti & Tk & Tc & _).
  repeat split; auto.
  - intros. unfold poll_transmit_gen. rewrite D. reflexivity.
  - intros. rewrite (handle_timeout_closed s now H (proj1 (drained_closed _ D'))), Tc. reflexivity.
Qed.

Lemma close_spaces_highest : forall e, has_keys e (highest e) = true ->
  snd (close_spaces e) = true /\ In (highest e) (fst (close_spaces e)).
Proof.
  intros e K. unfold has_keys in K. unfold close_spaces. cbv zeta.
  (* by the value of [highest e]; lower spaces are listed if they have keys *)
  destruct (highest e =? 0) eqn:E0.
  - apply Z.eqb_eq in E0. rewrite K, E0. cbn. auto.
  - rewrite andb_false_r. destruct (highest e =? 1) eqn:E1.
    + apply Z.eqb_eq in E1. rewrite K, E1. destruct (keys_i e); cbn; auto.
    + rewrite andb_false_r. destruct (highest e =? 2) eqn:E2; [|discriminate K].
      apply Z.eqb_eq in E2. rewrite K, E2. destruct (keys_i e), (keys_h e); cbn; auto.
Qed.

(** What a step does to the Idle timer: stopped, left alone, or restarted at instant +
    max(timeout, 3 PTO); only [OpPeerParams] changes the timeout. *)
Definition idle_fact (s : state) (o : op) (s' : state) : Prop :=
  (idle_timeout s' = idle_timeout s \/ exists p, o = OpPeerParams p) /\
  (t_idle s' = None \/
   (t_idle s' = t_idle s /\ (rx_auth s o = true -> idle_timeout s = None)) \/
   (exists i, idle_timeout s = Some i /\ restarts s o = true /\
              t_idle s' = Some (op_time o + Z.max i (3 * op_pto_idle o)))).

Lemma idle_keep : forall s o s', t_idle s' = t_idle s -> idle_timeout s' = idle_timeout s ->
  rx_auth s o = false -> idle_fact s o s'.
Proof. intros s o s' T I R. split; [auto|]. right; left. split; [exact T|congruence]. Qed.

Lemma idle_stop : forall s o s', t_idle s' = None -> idle_timeout s' = idle_timeout s ->
  idle_fact s o s'.
Proof. intros s o s' T I. split; auto. Qed.

Lemma handle_timeout_idle : forall s now,
  (t_idle (handle_timeout s now) = None \/ t_idle (handle_timeout s now) = t_idle s) /\
  idle_timeout (handle_timeout s now) = idle_timeout s.
Proof.
  intros s now. unfold handle_timeout.
  destruct (expired (t_idle s) now); cbv zeta; fields; cbn [expired]; [auto|].
  destruct (expired (t_close s) now); fields; destruct (expired (t_ka s) now); auto.
Qed.

Lemma idle_step : forall s o, idle_fact s o (step' s o).
Proof.
  intros s o.
  destruct o as [now code pto|now p pi pc sr|pi|now|other| |now e]; unfold step', step;
    cbn [step_gen fst].
  - unfold close_inner. destruct (is_closed (st s)); [now apply idle_keep|now apply idle_stop].
  - rewrite handle_packet_eq. unfold idle_fact, hp_norm.
    cbn [rx_auth restarts op_time op_pto_idle]. fields. split; [auto|].
    destruct (is_closed (st s)) eqn:C; fields.
    + right; left. rewrite !andb_false_r. split; [reflexivity|discriminate].
    + destruct (is_closed (st (hp_post s p))); [auto|].
      destruct (authed p); fields; [|right; left; split; [reflexivity|discriminate]].
      rewrite (idle_after_open s now pi C).
      destruct (idle_timeout s) as [i|]; [right; right; exists i|]; auto.
  - rewrite set_peer_params_eq. unfold idle_fact. cbn [rx_auth]. fields.
    split; [right; eauto|]. destruct (negotiate (cfg_idle s) pi); auto.
    right; left. split; [reflexivity|discriminate].
  - destruct (handle_timeout_idle s now) as [[T|T] I]; [now apply idle_stop|now apply idle_keep].
  - unfold poll. destruct other; [|destruct (error s)]; now apply idle_keep.
  - unfold poll_endpoint_events. destruct (0 <? epq s); now apply idle_keep.
  - destruct (transmit_cases false s now e) as [|F D|served fr Cg|O Da]; cbn [fst].
    + now apply idle_keep.
    + now apply idle_stop.
    + destruct served; now apply idle_keep.
    + rewrite on_sent_eq. unfold close_inner. rewrite O. destruct (conf e =? 1).
      * apply idle_stop; [|reflexivity]. unfold idle_after, reset_idle_timeout. fields.
        destruct (ack_eliciting e && permit_idle_reset s); [destruct (idle_timeout s)|];
          reflexivity.
      * destruct (ack_eliciting e && permit_idle_reset s) eqn:R; [|now apply idle_keep].
        rewrite (idle_after_open s now (pto_tx e) O).
        destruct (idle_timeout s) as [i|] eqn:I; [|now apply idle_keep].
        split; [auto|]. right; right. exists i. cbn [restarts op_time op_pto_idle].
        apply andb_true_iff in R. destruct R as [-> ->]. rewrite Da, O. auto.
Qed.

Definition deadline_after (s : state) (acc : list Z) (tmax : Z) : Prop :=
  Forall (fun t => t <= tmax) acc /\
  forall d i, t_idle s = Some d -> idle_timeout s = Some i -> Forall (fun t => t + i <= d) acc.

Lemma deadline_after_step : forall s o acc tmax t',
  deadline_after s acc tmax -> stable s o = true ->
  tmax <= t' -> (timed o = true -> t' = op_time o) ->
  deadline_after (step' s o) (acc ++ (if rx_auth s o then [op_time o] else [])) t'.
Proof.
  intros s o acc tmax t' [HM HK] ST LE TM.
  assert (F : Forall (fun t => t <= t') (acc ++ (if rx_auth s o then [op_time o] else []))).
  { apply Forall_app. split.
    - eapply Forall_impl; [|exact HM]. cbn. intros; lia.
    - destruct (rx_auth s o) eqn:RX; constructor; [|constructor].
      rewrite TM; [lia|]. destruct o; try discriminate RX; reflexivity. }
  split; [exact F|]. intros d i Td Ti. destruct (idle_step s o) as [A B].
  destruct B as [B|[[B R]|(i0 & I0 & RS & B)]].
  - congruence.
  - rewrite B in Td.
    destruct A as [A|[p ->]].
    + rewrite A in Ti. destruct (rx_auth s o) eqn:RX; [specialize (R eq_refl); congruence|].
      rewrite app_nil_r. apply HK; assumption.
    + cbn [rx_auth]. rewrite app_nil_r. cbn [stable] in ST. rewrite Td in ST.
      unfold step', step in Ti. cbn [step_gen fst] in Ti. rewrite set_peer_params_eq in Ti.
      cbn [idle_timeout set_t_idle set_idle_timeout] in Ti. rewrite Ti in ST.
      destruct (idle_timeout s) as [i1|] eqn:I1; [|discriminate ST].
      specialize (HK d i1 Td eq_refl). eapply Forall_impl; [|exact HK]. cbn. intros; lia.
  - (* a restart at [op_time o = t']: every instant so far is at most [t'] *)
    assert (TO : timed o = true) by (destruct o; cbn in RS |- *; try discriminate RS; reflexivity).
    assert (NP : idle_timeout (step' s o) = idle_timeout s).
    { destruct A as [A|[p ->]]; [exact A|discriminate TO]. }
    rewrite NP, I0 in Ti. inversion Ti; subst i0. rewrite B in Td. inversion Td; subst d.
    rewrite (TM TO) in F. eapply Forall_impl; [|exact F]. cbn. intros; lia.
Qed.

Lemma idle_lower : forall h s acc tmax,
  deadline_after s acc tmax -> mono tmax h = true -> stable_run s h = true ->
  exists t', deadline_after (run_state s h) (acc ++ rx_times s h) t'.
Proof.
  induction h as [|o h IH]; intros s acc tmax HK MO ST; cbn [rx_times run_state fold_left].
  - exists tmax. now rewrite app_nil_r.
  - cbn [stable_run] in ST. apply andb_true_iff in ST. destruct ST as [S1 S2].
    cbn [mono] in MO. rewrite app_assoc. fold (step' s o). fold (run_state (step' s o) h).
    destruct (timed o) eqn:TO.
    + apply andb_true_iff in MO. destruct MO as [M1 M2].
      apply (IH _ _ (op_time o)); auto. apply (deadline_after_step s o acc tmax); auto. lia.
    + apply (IH _ _ tmax); auto. apply (deadline_after_step s o acc tmax); auto; [lia|congruence].
Qed.

(** holds because [set_peer_params] stops the Idle timer when the negotiation yields "none" *)
Definition idle_armed_ok (s : state) : Prop := idle_timeout s = None -> t_idle s = None.

Lemma idle_armed_step : forall s o, idle_armed_ok s -> idle_armed_ok (step' s o).
Proof.
  intros s o H. unfold idle_armed_ok in *.
  destruct (idle_step s o) as [A B]. intros N.
  destruct A as [A|[p ->]].
  - rewrite A in N. destruct B as [B|[[B _]|(i0 & I0 & _)]].
    + exact B.
    + rewrite B. exact (H N).
    + congruence.
  - revert N. unfold step', step. cbn [step_gen fst]. rewrite set_peer_params_eq. fields.
    now intros ->.
Qed.

Lemma idle_armed_run : forall h s, idle_armed_ok s -> idle_armed_ok (run_state s h).
Proof. intros h s. apply (fold_left_pres _ idle_armed_ok). intros s' o. apply idle_armed_step. Qed.
