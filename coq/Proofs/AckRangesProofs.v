(** Model/AckRanges.v at the level of sets: the ranges stay canonical (ascending, disjoint,
    non-adjacent) and [insert], [remove 0 e], [pop_min] change exactly the members they should.
    [merge] and [insert_range] are the [merge_next] and [insert_at] of Model/ArrayRangeSet.v, so
    the facts about [insert] come from Proofs/RangeSetProofs.v. *)
From QV Require Import Lib.Tac Lib.Corr Model.AckRanges Model.PendingAcks.
From QV Require Model.ArrayRangeSet Proofs.RangeSetProofs.
Import AckRanges.
Open Scope Z_scope.

Fixpoint wf_from (lo : Z) (l : t) : Prop :=
  match l with
  | [] => True
  | (a, b) :: r => lo < a /\ a < b /\ wf_from b r
  end.

(** So the lemmas of Proofs/RangeSetProofs.v apply to [wf_from] by conversion. *)
Lemma wf_from_wfb : wf_from = RangeSetProofs.wfb.
Proof. reflexivity. Qed.

Lemma merge_eq : merge = ArrayRangeSet.merge_next.
Proof. reflexivity. Qed.

Definition in_rng (a e x : Z) : bool := (a <=? x) && (x <? e).

Import PendingAcks.
Definition WInv (M : Z) (s : PendingAcks.t) : Prop :=
  Z.of_nat (length (ranges s)) <= M /\ wf_from (-1) (ranges s).

Lemma mem_cons a b r x : mem ((a, b) :: r) x = in_rng a b x || mem r x.
Proof. reflexivity. Qed.

Lemma mem_iff l x : mem l x = true <-> RangeSetProofs.mem x l.
Proof.
  induction l as [|[a b] r IH].
  - split; [discriminate|]. intros H. now apply RangeSetProofs.mem_nil in H.
  - rewrite mem_cons, RangeSetProofs.mem_cons, orb_true_iff, IH. unfold in_rng. intuition lia.
Qed.

Lemma mem_below l lo x : wf_from lo l -> x <= lo -> mem l x = false.
Proof.
  rewrite wf_from_wfb. intros W Hx. destruct (mem l x) eqn:E; [|reflexivity].
  apply mem_iff, (RangeSetProofs.wfb_mem_gt lo) in E; [lia|exact W].
Qed.

Lemma insert_range_insert_at l : forall s e,
  insert_range l s e = snd (ArrayRangeSet.insert_at s e l).
Proof.
  induction l as [|[a b] r IH]; intros s e; cbn [insert_range ArrayRangeSet.insert_at];
    [reflexivity|].
  rewrite IH, merge_eq. destruct (ArrayRangeSet.insert_at s e r).
  destruct (b <? s), (e <? a), (e <=? b); reflexivity.
Qed.

Lemma insert_range_spec l lo s e :
  wf_from lo l -> lo < s -> s < e ->
  wf_from lo (insert_range l s e) /\
  (forall x, mem (insert_range l s e) x = mem l x || in_rng s e x).
Proof.
  intros W Hs He. rewrite insert_range_insert_at.
  pose proof (RangeSetProofs.insert_at_spec l lo s e W Hs He) as S.
  destruct (ArrayRangeSet.insert_at s e l) as [fresh l']. destruct S as (W' & M' & _).
  split; [exact W'|]. intros x. apply eq_true_iff_eq.
  rewrite orb_true_iff, !mem_iff, M'. unfold in_rng. intuition lia.
Qed.

Lemma merge_length : forall l a e, (length (merge a e l) <= S (length l))%nat.
Proof.
  induction l as [|[c d] l IH]; intros a e; cbn [merge length]; [lia|].
  destruct (c <=? e); [specialize (IH a (Z.max d e)); lia|cbn [length]; lia].
Qed.

Lemma insert_range_length : forall l s e,
  (length (insert_range l s e) <= S (length l))%nat.
Proof.
  induction l as [|[a b] l IH]; intros s e; cbn [insert_range length]; [lia|].
  destruct (b <? s); [cbn [length]; specialize (IH s e); lia|].
  destruct (e <? a); [cbn [length]; lia|].
  destruct (e <=? b); [cbn [length]; lia|].
  pose proof (merge_length l (if s <? a then s else a) e). lia.
Qed.

Lemma mem_merge : forall l a e x, a <= x < e -> mem (merge a e l) x = true.
Proof.
  induction l as [|[c d] l IH]; intros a e x Hx; cbn [merge].
  - rewrite mem_cons. unfold in_rng. lia.
  - destruct (c <=? e); [apply IH; lia|]. rewrite mem_cons. unfold in_rng. lia.
Qed.

Lemma mem_insert_new : forall l s e x, s <= x < e -> mem (insert_range l s e) x = true.
Proof.
  induction l as [|[a b] l IH]; intros s e x Hx; cbn [insert_range].
  - rewrite mem_cons. unfold in_rng. lia.
  - destruct (b <? s); [rewrite mem_cons, IH by exact Hx; apply orb_true_r|].
    destruct (e <? a) eqn:E0; [rewrite mem_cons; unfold in_rng; lia|].
    destruct (e <=? b) eqn:E3.
    + rewrite mem_cons. unfold in_rng. destruct (s <? a) eqn:E4; lia.
    + apply mem_merge. destruct (s <? a) eqn:E4; lia.
Qed.

(** [remove(0..e)] is the one use [PendingAcks.subtract_below] makes of [remove]; on ranges of
    non-negative numbers it never splits a range. *)
Lemma remove_loop_spec : forall l lo e,
  wf_from lo l -> -1 <= lo ->
  wf_from lo (remove_loop l 0 e) /\
  (forall x, mem (remove_loop l 0 e) x = mem l x && (e <=? x)) /\
  (length (remove_loop l 0 e) <= length l)%nat.
Proof.
  induction l as [|[a b] r IH]; intros lo e H Hlo; cbn [remove_loop].
  - split; [exact I|]. split; [reflexivity|lia].
  - pose proof H as (H1 & H2 & H3).
    assert (Hb : forall x, x <= b -> mem r x = false) by (intros x; apply mem_below, H3).
    destruct (e <=? a) eqn:E1.
    + split; [exact H|]. split; [|lia]. intros x. rewrite mem_cons. unfold in_rng.
      specialize (Hb x). destruct (mem r x); lia.
    + destruct (0 <=? a) eqn:E2; [|lia]. cbn [andb].
      destruct (IH b e H3) as (IHw & IHm & IHl); [lia|].
      destruct (b <=? e) eqn:E3.
      * split; [apply (RangeSetProofs.wfb_weaken b); [lia|exact IHw]|].
        split; [|cbn [length]; lia]. intros x. rewrite IHm, mem_cons. unfold in_rng.
        destruct (mem r x); lia.
      * split; [cbn [wf_from]; repeat split; [lia|lia|exact IHw]|].
        split; [|cbn [length]; lia]. intros x. rewrite !mem_cons, IHm. unfold in_rng.
        specialize (Hb x). destruct (mem r x); lia.
Qed.

Lemma remove_zero_spec l lo e :
  wf_from lo l -> -1 <= lo ->
  wf_from lo (AckRanges.remove l 0 e) /\
  (forall x, mem (AckRanges.remove l 0 e) x = mem l x && (e <=? x)) /\
  (length (AckRanges.remove l 0 e) <= length l)%nat.
Proof.
  intros H Hlo. unfold AckRanges.remove. destruct (e <=? 0) eqn:E0.
  { split; [exact H|]. split; [|lia]. intros x.
    pose proof (mem_below l lo x H) as Hb. destruct (mem l x); lia. }
  destruct l as [|[a b] r]; cbn [remove_range]; [split; [exact I|]; split; [reflexivity|lia]|].
  pose proof H as (H1 & H2 & H3).
  destruct (b <=? 0) eqn:E; [lia|]. apply remove_loop_spec; assumption.
Qed.

Lemma pop_min_spec a b r lo :
  wf_from lo ((a, b) :: r) ->
  wf_from lo (pop_min ((a, b) :: r)) /\
  (forall x, mem (pop_min ((a, b) :: r)) x = mem ((a, b) :: r) x && (b <=? x)) /\
  (* the dropped numbers are below every number kept *)
  (forall x y, in_rng a b x = true -> mem r y = true -> x < y).
Proof.
  cbn [wf_from pop_min tl]. intros (H1 & H2 & H3).
  assert (Hb : forall x, x <= b -> mem r x = false) by (intros x; apply mem_below, H3).
  split; [apply (RangeSetProofs.wfb_weaken b); [lia|exact H3]|]. split.
  - intros x. rewrite mem_cons. unfold in_rng. specialize (Hb x). destruct (mem r x); lia.
  - intros x y Hx Hy. unfold in_rng in Hx. specialize (Hb y). rewrite Hy in Hb. lia.
Qed.
