(** C18 — the inductive invariant of Model/AsyncConn.v. *)
From QV Require Import Lib.Tac Model.AsyncConn.
From Coq Require Import Arith.

(** where the waker of a pending operation is registered *)
Definition registered (s : st) (t : nat) (o : op) : Prop :=
  match o with
  | ORead k => aget (br s) k = Some t
  | OWrite k => aget (bw s) k = Some t
  | OStopped k => nwait s (NStopped k) t = true /\ memb (skeys s) k = true
  | _ => match notify_of o with Some n => nwait s n t = true | None => False end
  end.

Record Inv0 (s : st) : Prop := {
  (** the wake-up invariant: a pending operation whose task is not runnable is registered
      and its condition is false *)
  inv_wake : forall t o, pend s t = Some o ->
      runnable s t = true \/ (registered s t o /\ cond s o = false);
  (** the [&mut] borrows are exactly the live stream futures *)
  inv_rb1 : forall t k, pend s t = Some (ORead k) -> rborrow s k = Some t;
  inv_rb2 : forall t k, rborrow s k = Some t -> pend s t = Some (ORead k);
  inv_wb1 : forall t k, pend s t = Some (OWrite k) -> wborrow s k = Some t;
  inv_wb2 : forall t k, wborrow s k = Some t -> pend s t = Some (OWrite k);
  (** a registered [Notified] belongs to a live future of exactly that operation *)
  inv_nw : forall n t, nwait s n t = true -> exists o, pend s t = Some o /\ notify_of o = Some n;
  (** stream bookkeeping *)
  inv_rh_seen : forall k, recv_h s k = true -> seen s k = true;
  inv_sh_seen : forall k, send_h s k = true -> seen s k = true;
  inv_br_seen : forall k, aget (br s) k <> None -> seen s k = true;
  inv_end_seen : forall k, rx_end s k = true -> seen s k = true;
  inv_rx_seen : forall k, rx s k <> [] -> seen s k = true;
  inv_inc_seen : forall d k, In k (incoming s d) -> seen s k = true;
  inv_pend_rh : forall t k, pend s t = Some (ORead k) -> recv_h s k = true /\ all_read s k = false;
  inv_pend_sh : forall t k, pend s t = Some (OWrite k) -> send_h s k = true;
  (** the [debug_assert!] in [RecvStream::drop] *)
  inv_br_end : forall k, aget (br s) k <> None -> rx_end s k = false /\ rx s k = [];
  inv_allread_end : forall k, all_read s k = true -> rx_end s k = true;
  (** reference counting: [ref_count] = number of [ConnectionRef]s - 1 *)
  inv_ref_alive : driver_alive s = true -> refcnt s = nhandles s;
  inv_ref_dead : driver_alive s = false -> refcnt s = (nhandles s - 1)%Z;
  (** integrity: nothing received is lost or duplicated by polls, drops and wake-ups *)
  inv_data : forall k, discarded s k = false -> arrived s k = delivered s k ++ rx s k;
  inv_dgram : d_arrived s = d_delivered s ++ dq s;
  inv_deliv_seen : forall k, seen s k = false -> delivered s k = []
}.

(** the driver's own wake-up protocol (not maintained INSIDE a driver poll, hence separate) *)
Definition drv_ok (s : st) : Prop :=
  driver_alive s = true ->
  (drv_runnable s = true \/ drv_waker s = true) /\ (drv_work s = true -> drv_runnable s = true).

Record Inv (s : st) : Prop := { inv_0 :> Inv0 s; inv_drv : drv_ok s }.

(** the protocol / ghost / handle part of the state (everything a cancelled future must not touch) *)
Definition proto_eq (a b : st) : Prop :=
  connected a = connected b /\ hsconf a = hsconf b /\ err a = err b /\ budget a = budget b /\
  incoming a = incoming b /\ seen a = seen b /\ rx a = rx b /\ rx_end a = rx_end b /\
  wcredit a = wcredit b /\ w_end a = w_end b /\ stop_done a = stop_done b /\ dq a = dq b /\
  dspace a = dspace b /\ arrived a = arrived b /\ delivered a = delivered b /\
  discarded a = discarded b /\ d_arrived a = d_arrived b /\ d_delivered a = d_delivered b /\
  recv_h a = recv_h b /\ send_h a = send_h b /\ all_read a = all_read b /\
  refcnt a = refcnt b /\ nhandles a = nhandles b /\ br a = br b /\ bw a = bw b /\
  skeys a = skeys b /\ inner_closed a = inner_closed b /\ drained a = drained b /\
  driver_alive a = driver_alive b /\ drv_waker a = drv_waker b /\ drv_runnable a = drv_runnable b /\
  drv_work a = drv_work b /\ ep_entry a = ep_entry b.

Definition ok (ls : list label) : Prop := forallb label_no_reset_ack ls = true.

