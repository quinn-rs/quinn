(** Association-list lemmas for Model/Routing.v. *)
From QV Require Import Lib.Tac Lib.Corr Model.Routing.
Open Scope Z_scope.

Lemma key_dec (a b : key) : a = b \/ a <> b.
Proof. destruct (lz_eqb a b) eqn:E; [left; now apply lz_eqb_eq | right; now apply lz_eqb_neq]. Qed.

Section Maps.
  Context {V : Type}.
  Implicit Types (m : amap V) (k : key) (v : V).

  Lemma lookup_remove k k' m :
    lookup k (remove k' m) = if lz_eqb k k' then None else lookup k m.
  Proof.
    induction m as [|[k0 v0] m IH]; cbn [lookup remove].
    - destruct (lz_eqb k k'); reflexivity.
    - destruct (lz_eqb k' k0) eqn:E0.
      + apply lz_eqb_eq in E0. subst k0. rewrite IH.
        destruct (lz_eqb k k'); reflexivity.
      + cbn [lookup]. rewrite IH. destruct (lz_eqb k k0) eqn:E1; [|reflexivity].
        apply lz_eqb_eq in E1. subst k0. apply lz_eqb_neq in E0.
        destruct (lz_eqb k k') eqn:E2; [apply lz_eqb_eq in E2; congruence | reflexivity].
  Qed.

  Lemma lookup_remove_eq k m : lookup k (remove k m) = None.
  Proof. rewrite lookup_remove, lz_eqb_refl. reflexivity. Qed.

  Lemma lookup_remove_neq k k' m : k <> k' -> lookup k (remove k' m) = lookup k m.
  Proof. intros N. apply lz_eqb_neq in N. rewrite lookup_remove, N. reflexivity. Qed.

  Lemma lookup_insert_eq k v m : lookup k (insert k v m) = Some v.
  Proof. unfold insert. cbn [lookup]. rewrite lz_eqb_refl. reflexivity. Qed.

  Lemma lookup_insert_neq k k' v m : k <> k' -> lookup k (insert k' v m) = lookup k m.
  Proof. intros N. unfold insert. cbn [lookup]. rewrite lookup_remove_neq by exact N. apply lz_eqb_neq in N. rewrite N. reflexivity. Qed.

  Lemma lookup_remove_Some k k' m v :
    lookup k (remove k' m) = Some v <-> k <> k' /\ lookup k m = Some v.
  Proof.
    destruct (key_dec k k') as [->|N].
    - rewrite lookup_remove_eq. split; [discriminate | intros [N _]; congruence].
    - rewrite lookup_remove_neq by exact N. tauto.
  Qed.

  Lemma lookup_insert_Some k k' v m w :
    lookup k (insert k' v m) = Some w <-> (k = k' /\ w = v) \/ (k <> k' /\ lookup k m = Some w).
  Proof.
    destruct (key_dec k k') as [->|N].
    - rewrite lookup_insert_eq. split; [intros [= <-]; auto | intros [[_ ->]|[N _]]; congruence].
    - rewrite lookup_insert_neq by exact N. split; [auto | intros [[E _]|[_ H]]; congruence].
  Qed.

  Definition nodupk m := NoDup (map fst m).

  Lemma keys_remove k k' m : In k (map fst (remove k' m)) -> In k (map fst m) /\ k <> k'.
  Proof.
    induction m as [|[k0 v0] m IH]; cbn [remove map fst]; [contradiction|].
    destruct (lz_eqb k' k0) eqn:E.
    - intros H. apply IH in H. simpl. tauto.
    - apply lz_eqb_neq in E. cbn [map fst]. intros [<-|H]; [split; [left; reflexivity | congruence]|].
      apply IH in H. simpl. tauto.
  Qed.

  Lemma nodupk_remove k m : nodupk m -> nodupk (remove k m).
  Proof.
    unfold nodupk. induction m as [|[k0 v0] m IH]; cbn [remove map fst]; intros H; [constructor|].
    inversion H as [|? ? Hn Hd]; subst.
    destruct (lz_eqb k k0); [auto|]. cbn [map fst]. constructor; [|auto].
    intros Hin. apply keys_remove in Hin. tauto.
  Qed.

  Lemma nodupk_insert k v m : nodupk m -> nodupk (insert k v m).
  Proof.
    intros H. unfold insert, nodupk. cbn [map fst]. constructor.
    - intros Hin. apply keys_remove in Hin. tauto.
    - apply nodupk_remove. exact H.
  Qed.

  Lemma In_lookup k v m : nodupk m -> In (k, v) m -> lookup k m = Some v.
  Proof.
    unfold nodupk. induction m as [|[k0 v0] m IH]; cbn [map fst lookup]; intros Hd Hin; [contradiction|].
    inversion Hd as [|? ? Hn Hd']; subst. destruct Hin as [H|H].
    - inversion H; subst. rewrite lz_eqb_refl. reflexivity.
    - destruct (lz_eqb k k0) eqn:E; [|auto].
      apply lz_eqb_eq in E. subst k0. exfalso. apply Hn. apply in_map_iff. exists (k, v). auto.
  Qed.

  Lemma lookup_none_notin k m : lookup k m = None -> ~ In k (map fst m).
  Proof.
    induction m as [|[k0 v0] m IH]; cbn [lookup map fst]; intros H; [tauto|].
    destruct (lz_eqb k k0) eqn:E; [discriminate|]. apply lz_eqb_neq in E.
    intros [Hk|Hk]; [congruence | now apply IH].
  Qed.

  Lemma size_remove_le k m : (length (remove k m) <= length m)%nat.
  Proof.
    induction m as [|[k0 v0] m IH]; cbn [remove length]; [lia|].
    destruct (lz_eqb k k0); cbn [length]; lia.
  Qed.
End Maps.

Lemma mem_true {V} k (m : amap V) : mem k m = true <-> exists v, lookup k m = Some v.
Proof. unfold mem. destruct (lookup k m); split; intros H; eauto; try discriminate. destruct H; discriminate. Qed.

Lemma lookup_vals {V} (m : amap V) k c : lookup k m = Some c -> In c (map snd m).
Proof.
  induction m as [|[k0 v0] m IH]; cbn [lookup map snd]; [discriminate|].
  destruct (lz_eqb k k0); [intros [= <-]; left; reflexivity | right; auto].
Qed.

Lemma In_vals_lookup {V} (m : amap V) c : nodupk m -> In c (map snd m) -> exists k, lookup k m = Some c.
Proof.
  intros D H. apply in_map_iff in H. destruct H as [[k v] [E H]]. simpl in E. subst v.
  exists k. apply In_lookup; assumption.
Qed.

Lemma lookup_remove_if_Some k k' ch (m : amap Z) c :
  lookup k (remove_if k' ch m) = Some c -> lookup k m = Some c /\ (k = k' -> c <> ch).
Proof.
  unfold remove_if. destruct (lookup k' m) as [c'|] eqn:L.
  - destruct (c' =? ch) eqn:E.
    + intros H. apply lookup_remove_Some in H. tauto.
    + intros H. split; [exact H|]. intros ->. rewrite L in H. injection H as <-. lia.
  - intros H. split; [exact H|]. intros ->. congruence.
Qed.

Lemma lookup_remove_all_Some c ks (m : amap Z) v :
  lookup c (remove_all ks m) = Some v <-> ~ In c ks /\ lookup c m = Some v.
Proof.
  revert m. induction ks as [|k ks IH]; intros m; cbn [remove_all In]; [tauto|].
  rewrite IH, lookup_remove_Some. intuition congruence.
Qed.
