(** Proofs about Model/PathResponses.v (C03: the PATH_RESPONSE queue is bounded by
    MAX_PATH_RESPONSES for every push/pop sequence, holds at most one entry per remote, and after a
    push the entry of that remote is not older than the PATH_CHALLENGE just pushed). *)
From QV Require Import Lib.Tac Lib.Corr Model.PathResponses Proofs.RunInduction.
Import PathResponses.
Open Scope Z_scope.

Definition remotes (l : t) : list Z := map remote l.

Definition Inv (M : Z) (l : t) : Prop :=
  Z.of_nat (length l) <= M /\ NoDup (remotes l).

Lemma replace_first_some : forall l n l',
  replace_first l n = Some l' ->
  length l' = length l /\ remotes l' = remotes l /\
  (NoDup (remotes l) -> forall e, In e l' -> remote e = remote n -> packet n <= packet e).
Proof.
  induction l as [|x l IH]; intros n l' H; cbn [replace_first] in H; [discriminate|].
  destruct (remote x =? remote n) eqn:E.
  - (* the entry of this remote: the newer of the two stays, and no other has this remote *)
    inversion H; subst; clear H. apply Z.eqb_eq in E.
    split; [reflexivity|]. split; [destruct (packet x <=? packet n); cbn; congruence|].
    intros Hnd e [He|He] Hr.
    + destruct (packet x <=? packet n) eqn:Ep; subst; lia.
    + inversion Hnd as [|? ? Hni _]; subst. exfalso. apply Hni.
      rewrite E, <- Hr. apply in_map. exact He.
  - destruct (replace_first l n) as [r'|] eqn:Er; [|discriminate].
    inversion H; subst; clear H. destruct (IH n r' Er) as (Hl & Hm & Hnew).
    cbn [length remotes map In]. split; [congruence|]. split; [unfold remotes in Hm; congruence|].
    intros Hnd e [He|He] Hr.
    + subst. apply Z.eqb_neq in E. congruence.
    + inversion Hnd; subst. apply Hnew; assumption.
Qed.

Lemma replace_first_none : forall l n,
  replace_first l n = None -> ~ In (remote n) (remotes l).
Proof.
  induction l as [|x l IH]; intros n H; cbn [replace_first] in H; [intros []|].
  destruct (remote x =? remote n) eqn:E; [discriminate|].
  destruct (replace_first l n) eqn:Er; [discriminate|].
  cbn [remotes map In]. intros [H1|H1].
  - apply Z.eqb_neq in E. congruence.
  - exact (IH n Er H1).
Qed.

Lemma remotes_app l1 l2 : remotes (l1 ++ l2) = remotes l1 ++ remotes l2.
Proof. unfold remotes. apply map_app. Qed.

Lemma NoDup_snoc (l : list Z) x : NoDup l -> ~ In x l -> NoDup (l ++ [x]).
Proof.
  intros Hnd Hni. apply (NoDup_Add (Add_app x l [])). rewrite app_nil_r. split; assumption.
Qed.

Lemma push_inv M l p tk r : Inv M l -> Inv M (push M l p tk r).
Proof.
  intros [Hlen Hnd]. unfold push.
  destruct (replace_first l (mkr p tk r)) as [l'|] eqn:E.
  - destruct (replace_first_some _ _ _ E) as (Hl & Hm & _). split.
    + rewrite Hl. exact Hlen.
    + rewrite Hm. exact Hnd.
  - apply replace_first_none in E. cbn [remote] in E.
    destruct (Z.of_nat (length l) <? M) eqn:Ec; [|split; assumption].
    split.
    + rewrite app_length. cbn [length]. lia.
    + rewrite remotes_app. apply NoDup_snoc; assumption.
Qed.

(** Never more than one step of growth, and only when below the cap. *)
Lemma push_length M l p tk r :
  (length l <= length (push M l p tk r) <= length l + 1)%nat /\
  (M <= Z.of_nat (length l) -> length (push M l p tk r) = length l).
Proof.
  unfold push. destruct (replace_first l (mkr p tk r)) as [l'|] eqn:E.
  - destruct (replace_first_some _ _ _ E) as (Hl & _). rewrite Hl. split; [lia|reflexivity].
  - destruct (Z.of_nat (length l) <? M) eqn:Ec.
    + rewrite app_length. cbn [length]. split; [lia|lia].
    + split; [lia|reflexivity].
Qed.

(** The queued response of a remote is never older than the PATH_CHALLENGE just pushed for it,
    and a challenge from a remote that already has an entry never consumes a second slot. *)
Lemma push_keeps_newest M l p tk r :
  NoDup (remotes l) ->
  forall e, In e (push M l p tk r) -> remote e = r -> p <= packet e.
Proof.
  intros Hnd e He Hr. unfold push in He.
  destruct (replace_first l (mkr p tk r)) as [l'|] eqn:E.
  - destruct (replace_first_some _ _ _ E) as (_ & _ & Hnew).
    apply (Hnew Hnd e He). exact Hr.
  - apply replace_first_none in E. cbn [remote] in E.
    destruct (Z.of_nat (length l) <? M).
    + apply in_app_or in He. destruct He as [He|[He|[]]].
      * exfalso. apply E. rewrite <- Hr. apply in_map. exact He.
      * subst. cbn. lia.
    + exfalso. apply E. rewrite <- Hr. apply in_map. exact He.
Qed.

Lemma unsnoc_spec : forall l l' x, unsnoc l = Some (l', x) -> l = l' ++ [x].
Proof.
  induction l as [|a l IH]; intros l' x H; cbn [unsnoc] in H; [discriminate|].
  destruct l as [|b l].
  - inversion H; subst. reflexivity.
  - destruct (unsnoc (b :: l)) as [[r' y]|] eqn:E; [|discriminate].
    inversion H; subst. rewrite (IH _ _ eq_refl). reflexivity.
Qed.

Lemma unsnoc_none : forall l, unsnoc l = None -> l = [].
Proof.
  induction l as [|a l IH]; intros H; [reflexivity|]. cbn [unsnoc] in H.
  destruct l as [|b l]; [discriminate|].
  destruct (unsnoc (b :: l)) as [[r' y]|] eqn:E; [discriminate|].
  specialize (IH eq_refl). discriminate.
Qed.

Lemma unsnoc_inv M l l' x : unsnoc l = Some (l', x) -> Inv M l -> Inv M l'.
Proof.
  intros E [Hlen Hnd]. apply unsnoc_spec in E. subst l. rewrite app_length in Hlen. cbn [length] in Hlen. split; [lia|].
  rewrite remotes_app in Hnd. apply NoDup_remove_1 in Hnd. rewrite app_nil_r in Hnd. exact Hnd.
Qed.

Lemma step_inv M l o : Inv M l -> Inv M (fst (step M l o)).
Proof.
  intros HI. destruct o as [p tk r|r|r|]; cbn [step].
  - cbn [fst]. apply push_inv. exact HI.
  - unfold pop_off_path. destruct (unsnoc l) as [[l' x]|] eqn:E; [|exact HI].
    destruct (remote x =? r); [exact HI | exact (unsnoc_inv M l l' x E HI)].
  - unfold pop_on_path. destruct (unsnoc l) as [[l' x]|] eqn:E; [|exact HI].
    destruct (remote x =? r); [exact (unsnoc_inv M l l' x E HI) | exact HI].
  - exact HI.
Qed.

(** The first number of every observation is the queue length after the op. *)
Lemma step_reports_length M l o : hd (-1) (snd (step M l o)) = zlen (fst (step M l o)).
Proof.
  destruct o as [p tk r|r|r|]; cbn [step].
  - reflexivity.
  - destruct (pop_off_path l r) as [l' [[tk r']|]]; reflexivity.
  - destruct (pop_on_path l r) as [l' [tk|]]; reflexivity.
  - reflexivity.
Qed.

Definition exec (M : Z) (l : t) (os : list op) : t :=
  fold_left (fun l o => fst (step M l o)) os l.

Lemma exec_inv M : forall os l, Inv M l -> Inv M (exec M l os).
Proof. intros os l. apply (fold_left_pres _ (Inv M)). intros l' o. apply step_inv. Qed.

Lemma run_ops_bounded M : forall os l, Inv M l ->
  Forall (fun out => 0 <= hd (-1) out <= M) (run_ops M l os).
Proof.
  induction os as [|o os IH]; intros l HI; cbn [run_ops]; [constructor|].
  pose proof (step_inv M l o HI) as HI'. pose proof (step_reports_length M l o) as Hr.
  destruct (step M l o) as [l' out]. cbn [fst snd] in *. constructor.
  - rewrite Hr. unfold zlen. destruct HI' as [Hlen _]. lia.
  - apply IH. exact HI'.
Qed.

Lemma path_responses_bounded_lemma M : 0 <= M -> forall os,
  let l := exec M [] os in
  Z.of_nat (length l) <= M /\ NoDup (remotes l) /\
  Forall (fun out => 0 <= hd (-1) out <= M) (run_ops M [] os).
Proof.
  intros HM os l.
  assert (H0 : Inv M []) by (split; [cbn; lia|constructor]).
  destruct (exec_inv M os [] H0) as [H1 H2]. repeat split; try assumption.
  apply run_ops_bounded. exact H0.
Qed.
