(** SendBuffer model: the buffered segments are always the suffix of the written bytes starting at
    [base = offset - unacked_len]; consequences for [get] and for the frames produced by
    poll_transmit + the copy loop, for all op sequences. *)
From QV Require Import Lib.Tac Lib.Bytes Lib.Corr Lib.RangeSpec Model.RangeSet Model.SendBuffer
  Proofs.BytesProofs.
Open Scope Z_scope.

Definition base (s : t) : Z := offset s - unacked_len s.

(** [W] = everything written so far *)
Definition inv (W : list Z) (s : t) : Prop :=
  offset s = zlen W /\ 0 <= base s /\ unacked_len s = zlen (concat (segs s)) /\
  concat (segs s) = skipn (Z.to_nat (base s)) W.

Lemma csub_some a b c : csub a b = Some c -> c = a - b /\ b <= a.
Proof. unfold csub. destruct (b <=? a) eqn:E; [|discriminate]. intros [= <-]. lia. Qed.

Lemma inv_init : inv [] init.
Proof. unfold inv, base. cbn. repeat split; lia. Qed.

Lemma skipn_skipn {A} (x y : nat) (l : list A) : skipn x (skipn y l) = skipn (x + y) l.
Proof.
  revert l; induction y as [|y IH]; intros l.
  - now rewrite Nat.add_0_r.
  - destruct l as [|a l]; [now rewrite !skipn_nil|]. rewrite Nat.add_succ_r. cbn [skipn]. apply IH.
Qed.

Lemma skipn_app_le {A} n (l1 l2 : list A) : (n <= length l1)%nat -> skipn n (l1 ++ l2) = skipn n l1 ++ l2.
Proof. intros H. rewrite skipn_app. replace (n - length l1)%nat with 0%nat by lia. reflexivity. Qed.

Lemma firstn_app_le {A} n (l1 l2 : list A) : (n <= length l1)%nat -> firstn n (l1 ++ l2) = firstn n l1.
Proof. intros H. rewrite firstn_app. replace (n - length l1)%nat with 0%nat by lia. apply app_nil_r. Qed.

Lemma inv_write W s d : inv W s -> inv (W ++ d) (write s d).
Proof.
  unfold inv, base, write. cbn [offset unacked_len segs]. intros (H1 & H2 & H3 & H4).
  rewrite concat_app. cbn [concat]. rewrite app_nil_r, !zlen_app.
  repeat split; try lia.
  replace (offset s + zlen d - (unacked_len s + zlen d)) with (offset s - unacked_len s) by lia.
  rewrite H4. symmetry. apply skipn_app_le. unfold zlen in *. lia.
Qed.

Lemma advance_spec sg : forall n sg', advance sg n = Some sg' -> 0 <= n ->
  concat sg' = skipn (Z.to_nat n) (concat sg) /\ n <= zlen (concat sg).
Proof.
  (* whatever [sg] is, the loop first tests [n <= 0] *)
  induction sg as [|f r IH]; intros n sg' H Hn; cbn [advance] in H;
    (destruct (n <=? 0) eqn:E;
     [inversion H; subst; replace n with 0 by lia; split; [reflexivity | unfold zlen; lia] |]).
  - discriminate.
  - cbn [concat]. rewrite zlen_app, skipn_app. unfold zlen in *.
    destruct (Z.of_nat (length f) <=? n) eqn:E2.
    + apply IH in H as [H1 H2]; [|lia]. split; [|lia].
      rewrite (skipn_all2 f), H1 by lia. cbn [app]. f_equal. lia.
    + inversion H; subst. split; [|lia]. cbn [concat].
      replace (Z.to_nat n - length f)%nat with 0%nat by lia. reflexivity.
Qed.

Lemma ack_loop_inv W a : forall sg ulen off a' sg' ulen',
  ack_loop a sg ulen off = Some (a', sg', ulen') ->
  0 <= off - ulen -> ulen = zlen (concat sg) ->
  concat sg = skipn (Z.to_nat (off - ulen)) W ->
  0 <= off - ulen' /\ ulen' = zlen (concat sg') /\ concat sg' = skipn (Z.to_nat (off - ulen')) W.
Proof.
  induction a as [|[s e] r IH]; intros sg ulen off a' sg' ulen' H Hb Hu Hc; cbn [ack_loop] in H.
  - inversion H; subst. auto.
  - destruct (csub off ulen) as [b|] eqn:E0; [|discriminate]. apply csub_some in E0 as [-> _].
    destruct (s =? off - ulen) eqn:E1; [|inversion H; subst; auto].
    destruct (csub e s) as [adv|] eqn:E2; [|discriminate]. apply csub_some in E2 as [-> Les].
    destruct (csub ulen (e - s)) as [ulen1|] eqn:E3; [|discriminate]. apply csub_some in E3 as [-> L3].
    destruct (advance sg (e - s)) as [sg1|] eqn:E4; [|discriminate].
    apply advance_spec in E4 as [A1 A2]; [|lia].
    apply IH in H; auto; try lia.
    + unfold zlen in *. rewrite A1, skipn_length. lia.
    + rewrite A1, Hc, skipn_skipn. f_equal. lia.
Qed.

Lemma inv_ack W s rs re s' : inv W s -> ack s rs re = Some s' -> inv W s'.
Proof.
  unfold inv, base, ack. intros (H1 & H2 & H3 & H4) H.
  destruct (csub (offset s) (unacked_len s)) as [b|]; [|discriminate].
  destruct (ack_loop _ _ _ _) as [[[a2 sg] ulen]|] eqn:E; [|discriminate].
  inversion H; subst; clear H. cbn [offset unacked_len segs].
  apply (ack_loop_inv W) in E; auto.
Qed.

Lemma get_from_spec sg : forall so gs ge d, get_from sg so gs ge = Some d ->
  zlen d <= Z.max 0 (ge - gs) /\
  (gs < so -> d = []) /\
  (so <= gs -> d = firstn (length d) (skipn (Z.to_nat (gs - so)) (concat sg))).
Proof.
  induction sg as [|f r IH]; intros so gs ge d H; cbn [get_from] in H.
  - inversion H; subst. repeat split. unfold zlen; cbn; lia.
  - destruct ((so <=? gs) && (gs <? so + zlen f)) eqn:E.
    + destruct (csub ge so) as [en|] eqn:E1; [|discriminate]. apply csub_some in E1 as [-> L1].
      destruct (Z.min (ge - so) (zlen f) <? gs - so) eqn:E2; [discriminate|].
      inversion H; subst; clear H. cbn [concat]. unfold zlen in *.
      set (k := Z.to_nat (Z.min (ge - so) (Z.of_nat (length f)) - (gs - so))).
      assert (Hk : (k <= length (skipn (Z.to_nat (gs - so)) f))%nat)
        by (rewrite skipn_length; lia).
      rewrite firstn_length, Nat.min_l by exact Hk.
      split; [lia|]. split; [lia|]. intros _.
      rewrite skipn_app_le by lia. symmetry. now apply firstn_app_le.
    + apply IH in H as (B & Hlt & Hge). unfold zlen in *. split; [exact B|]. split.
      * intros L. apply Hlt. lia.
      * intros G. cbn [concat]. rewrite skipn_app, (skipn_all2 f) by lia. cbn [app].
        replace (Z.to_nat (gs - so) - length f)%nat
          with (Z.to_nat (gs - (so + Z.of_nat (length f)))) by lia.
        apply Hge. lia.
Qed.

Definition slice (l : list Z) (off len : Z) : list Z := SendBuffer.slice l off len.

Lemma slice_zlen l off d : slice l off (zlen d) = firstn (length d) (skipn (Z.to_nat off) l).
Proof. unfold slice, SendBuffer.slice, zlen. now rewrite Nat2Z.id. Qed.

Lemma get_sound W s gs ge d : inv W s -> get s gs ge = Some d ->
  d = slice W gs (zlen d) /\ zlen d <= Z.max 0 (ge - gs).
Proof.
  unfold inv, get, base. intros (H1 & H2 & H3 & H4) H.
  destruct (csub (offset s) (unacked_len s)) as [b|] eqn:E; [|discriminate]. apply csub_some in E as [-> _].
  apply get_from_spec in H as (B & Hlt & Hge). split; [|exact B].
  destruct (Z.lt_ge_cases gs (offset s - unacked_len s)) as [L|G].
  - rewrite (Hlt L). reflexivity.
  - rewrite (Hge G) at 1. rewrite H4, skipn_skipn, slice_zlen.
    do 2 f_equal. lia.
Qed.

(** This is why the copy loop of write_stream_frames advances. *)
Lemma get_from_progress sg : forall seg_off gs ge,
  seg_off <= gs -> gs < ge -> gs < seg_off + zlen (concat sg) ->
  exists b d, get_from sg seg_off gs ge = Some (b :: d).
Proof.
  induction sg as [|f r IH]; intros seg_off gs ge H1 H2 H3; cbn [get_from].
  - unfold zlen in H3. cbn in H3. lia.
  - destruct ((seg_off <=? gs) && (gs <? seg_off + zlen f)) eqn:E.
    + unfold csub. destruct (seg_off <=? ge) eqn:E1; [|lia].
      destruct (Z.min (ge - seg_off) (zlen f) <? gs - seg_off) eqn:E2; [lia|].
      destruct (firstn _ _) as [|b0 t] eqn:Ef; [|eauto].
      apply (f_equal (@length Z)) in Ef. rewrite firstn_length, skipn_length in Ef.
      unfold zlen in *. cbn [length] in Ef. lia.
    + cbn [concat] in H3. rewrite zlen_app in H3. apply IH; lia.
Qed.

Theorem get_progress W s gs ge : inv W s ->
  base s <= gs -> gs < ge -> gs < offset s ->
  exists b d, get s gs ge = Some (b :: d).
Proof.
  unfold inv, get, base. intros (H1 & H2 & H3 & H4) Hb Hlt Ho.
  unfold csub. destruct (unacked_len s <=? offset s) eqn:E; [|lia].
  apply get_from_progress; lia.
Qed.

Lemma firstn_add {A} n : forall m (l : list A),
  firstn (n + m) l = firstn n l ++ firstn m (skipn n l).
Proof.
  induction n as [|n IH]; intros m l; [reflexivity|].
  destruct l as [|x l]; cbn [plus firstn skipn app]; [now rewrite firstn_nil|]. now rewrite IH.
Qed.

Lemma slice_app W a n m : 0 <= a -> 0 <= n -> 0 <= m ->
  slice W a n ++ slice W (a + n) m = slice W a (n + m).
Proof.
  intros Ha Hn Hm. unfold slice, SendBuffer.slice.
  replace (Z.to_nat (n + m)) with (Z.to_nat n + Z.to_nat m)%nat by lia.
  rewrite firstn_add, skipn_skipn. do 3 f_equal. lia.
Qed.

Lemma copy_loop_sound W s fuel : forall gs ge acc rs d ok,
  inv W s -> 0 <= rs -> acc = slice W rs (zlen acc) -> gs = rs + zlen acc ->
  copy_loop fuel s gs ge acc = Some (d, ok) ->
  d = slice W rs (zlen d) /\ (ok = true -> zlen d = ge - rs).
Proof.
  (* with or without fuel, the loop first tests [gs = ge] *)
  induction fuel as [|f IH]; intros gs ge acc rs d ok Hi Hr Ha Hgs H; cbn [copy_loop] in H;
    (destruct (gs =? ge) eqn:E; [inversion H; subst; split; [exact Ha | lia] |]).
  - inversion H; subst. split; [exact Ha | discriminate].
  - destruct (get s gs ge) as [[|g0 gt]|] eqn:G; [| |discriminate].
    { inversion H; subst. split; [exact Ha | discriminate]. }
    apply (get_sound W) in G as [G1 G2]; [|exact Hi].
    apply IH with (rs := rs) in H; auto; rewrite zlen_app; [|lia].
    rewrite <- slice_app, <- Ha, <- Hgs, <- G1 by (unfold zlen; lia). reflexivity.
Qed.

Inductive op :=
| OWrite (d : list Z)
| OPoll (max_len : Z)
| OAck (rs re : Z)
| OGet (gs ge : Z)
| ORetransmit (rs re : Z)
| OZeroRtt
| OObserve
| OProbe.

Definition encode (o : op) : list Z :=
  match o with
  | OWrite d => 0 :: d
  | OPoll m => [1; m]
  | OAck rs re => [2; rs; re]
  | OGet gs ge => [3; gs; ge]
  | ORetransmit rs re => [4; rs; re]
  | OZeroRtt => [5]
  | OObserve => [6]
  | OProbe => [7]
  end.

Definition written_after (W : list Z) (o : op) : list Z :=
  match o with OWrite d => W ++ d | _ => W end.

(** a frame produced by poll_transmit + copy loop: (complete?, start, end, data) *)
Definition frame := (bool * Z * Z * list Z)%type.

Definition frame_of (o : op) (out : list Z) : list frame :=
  match o, out with
  | OPoll _, tag :: rs :: re :: enc :: d => [(tag =? 0, rs, re, d)]
  | _, _ => []
  end.

Fixpoint exec (s : t) (W : list Z) (os : list op) : option (t * list Z * list frame) :=
  match os with
  | [] => Some (s, W, [])
  | o :: r =>
      match step s (encode o) with
      | None => None
      | Some (s1, out) =>
          match exec s1 (written_after W o) r with
          | None => None
          | Some (s2, W2, fs) => Some (s2, W2, frame_of o out ++ fs)
          end
      end
  end.

Definition frame_ok (W : list Z) (f : frame) : Prop :=
  let '(complete, rs, re, d) := f in
  0 <= rs -> d = slice W rs (zlen d) /\ (complete = true -> zlen d = re - rs).

Lemma inv_same_buffer W s s' :
  segs s' = segs s -> unacked_len s' = unacked_len s -> offset s' = offset s -> inv W s -> inv W s'.
Proof. unfold inv, base. intros -> -> ->. auto. Qed.

Lemma poll_transmit_inv W s m s' r : poll_transmit s m = Some (s', r) -> inv W s -> inv W s'.
Proof.
  unfold poll_transmit. destruct (m <? 16); [discriminate|].
  (* a retransmission or fresh data: either way only [unsent] or [retransmits] changes *)
  destruct (RangeSet.pop_min (retransmits s)) as [[[rs re]|] rt];
    (destruct (budget _ _ m) as [[e enc]|]; [|discriminate]);
    intros [= <- <-]; now apply inv_same_buffer.
Qed.

Lemma step_inv W s o s1 out :
  step s (encode o) = Some (s1, out) -> inv W s ->
  inv (written_after W o) s1 /\ Forall (frame_ok (written_after W o)) (frame_of o out).
Proof.
  intros H Hi. destruct o as [d | m | rs re | gs ge | rs re | | | ]; cbn [encode step] in H;
    cbn [written_after frame_of].
  2: { destruct (poll_transmit s m) as [[s' [[rs re] enc]]|] eqn:P; [|discriminate].
       apply (poll_transmit_inv W) in P as Hi'; [|exact Hi].
       destruct (copy_loop _ s' rs re []) as [[d ok]|] eqn:C; [|discriminate].
       inversion H; subst; clear H. split; [exact Hi'|].
       constructor; [|constructor]. intros Hrs.
       apply (copy_loop_sound W) with (rs := rs) in C;
         [|exact Hi' | exact Hrs | reflexivity | unfold zlen; cbn [length]; lia].
       destruct C as [C1 C2]. split; [exact C1|].
       destruct ok; cbn; [intros _; now apply C2 | discriminate]. }
  (* the other ops yield no frame *)
  all: split; [|constructor].
  - inversion H; subst. now apply inv_write.
  - destruct (ack s rs re) as [s'|] eqn:A; [|discriminate]. inversion H; subst.
    eapply inv_ack; eauto.
  - destruct (get s gs ge); [|discriminate]. now inversion H; subst.
  - unfold retransmit in H. destruct (unsent s <? re); [discriminate|]. inversion H; subst.
    eapply inv_same_buffer; eauto.
  - unfold retransmit_all_for_0rtt in H. destruct (offset s =? unacked_len s); [|discriminate].
    inversion H; subst. eapply inv_same_buffer; eauto.
  - destruct (unacked s); [|discriminate]. now inversion H; subst.
  - now inversion H; subst.
Qed.

Lemma slice_prefix W X a d : d = slice W a (zlen d) -> d = slice (W ++ X) a (zlen d).
Proof.
  rewrite !slice_zlen. intros Hd.
  (* [d] has its full length, so it ends within [W] *)
  assert (L : (length d <= length (skipn (Z.to_nat a) W))%nat).
  { rewrite Hd at 1. rewrite firstn_length. lia. }
  rewrite skipn_app, firstn_app_le by exact L. exact Hd.
Qed.

Lemma frame_ok_prefix W X f : frame_ok W f -> frame_ok (W ++ X) f.
Proof.
  destruct f as [[[c rs] re] d]. unfold frame_ok. intros H Hrs. destruct (H Hrs) as [H1 H2].
  split; [now apply slice_prefix | exact H2].
Qed.

Lemma exec_inv os : forall s W s' W' fs,
  exec s W os = Some (s', W', fs) -> inv W s ->
  inv W' s' /\ (exists X, W' = W ++ X) /\ Forall (frame_ok W') fs.
Proof.
  induction os as [|o r IH]; intros s W s' W' fs H Hi; cbn [exec] in H.
  - inversion H; subst. split; [auto|]. split; [exists []; now rewrite app_nil_r | constructor].
  - destruct (step s (encode o)) as [[s1 out]|] eqn:S; [|discriminate].
    destruct (exec s1 (written_after W o) r) as [[[s2 W2] fs2]|] eqn:X; [|discriminate].
    inversion H; subst; clear H.
    apply step_inv with (W := W) in S; auto. destruct S as [I1 F1].
    apply IH in X; auto. destruct X as (I2 & [Y HY] & F2).
    split; [exact I2|]. split.
    + destruct o; cbn [written_after] in HY; try (exists Y; exact HY).
      exists (d ++ Y). now rewrite app_assoc.
    + apply Forall_app. split; [|exact F2].
      rewrite HY. eapply Forall_impl; [|exact F1]. intros f. apply frame_ok_prefix.
Qed.

Theorem frames_sound os s' W' fs :
  exec init [] os = Some (s', W', fs) -> Forall (frame_ok W') fs.
Proof. intros H. apply exec_inv in H; [|apply inv_init]. now destruct H as (_ & _ & F). Qed.
