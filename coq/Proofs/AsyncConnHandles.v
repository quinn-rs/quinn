(** C18 — [Inv0] and [drv_ok] are preserved by every step: wake-ups, driver events, dropped futures,
    stream calls, handle drops, the driver poll and the application poll. *)
From QV Require Import Lib.Tac Model.AsyncConn Proofs.AsyncConnInv Proofs.AsyncConnLemmas Proofs.AsyncConnFacts Proofs.RunInduction.
From Coq Require Import Arith.

Lemma Inv0_init : Inv0 init.
Proof.
  constructor; cbn; intros; try discriminate; try congruence; try contradiction; auto.
Qed.

(** binds the groups of [HI : Inv0 s] as [HW HT HB HR HD] *)
Ltac groups HI :=
  let H := fresh in
  pose proof (proj1 (Inv0_groups _) HI) as H; destruct H as (HW & HT & HB & HR & HD).

Ltac eqb_cases :=
  unfold upd, updb in *;
  repeat match goal with
         | |- context [Nat.eqb ?a ?b] => destruct (Nat.eqb_spec a b); try subst
         | H : context [Nat.eqb ?a ?b] |- _ => destruct (Nat.eqb_spec a b); try subst
         | |- context [Bool.eqb ?a ?b] => destruct (Bool.eqb_spec a b); try subst
         | H : context [Bool.eqb ?a ?b] |- _ => destruct (Bool.eqb_spec a b); try subst
         end.

Definition ctl_blank (s : st) : st :=
  set_h s (recv_h s) (send_h s) (all_read s) (refcnt s) (nhandles s) false false (driver_alive s)
        false false false false.
Lemma Inv0_ext : forall a b, ctl_blank a = ctl_blank b -> Inv0 b -> Inv0 a.
Proof.
  assert (E : forall s, Inv0 (ctl_blank s) <-> Inv0 s).
  { intros s; split; intros HI; groups HI; apply Inv0_of_groups; assumption. }
  intros a b Hab HI. apply E. rewrite Hab. apply E, HI.
Qed.
Lemma Inv0_need_driver : forall s, Inv0 s -> Inv0 (need_driver s).
Proof. intros s. apply Inv0_ext. rewrite need_driver_nf. reflexivity. Qed.
Lemma Inv0_set_drv : forall s w r k, Inv0 s -> Inv0 (set_drv s (driver_alive s) w r k).
Proof. intros s w r k. apply Inv0_ext. reflexivity. Qed.

Lemma TaskOk_wakes : forall a b, wakes a b -> TaskOk a -> TaskOk b.
Proof.
  intros a b [r b' w n k _ _ _ _ _ _ Hn'] (R & W & N).
  split; [exact R|split; [exact W|]]. intros m t H. apply N, Hn', H.
Qed.
Lemma BookOk_wakes : forall a b, wakes a b -> BookOk a -> BookOk b.
Proof.
  intros a b [r b' w n k _ _ _ _ _ Hb' _] (B1 & B2 & B3 & B4 & B5 & B6 & B7 & B8).
  repeat apply conj; try assumption.
  - intros x H. apply B3, Hb', H.
  - intros x H. apply B7, Hb', H.
Qed.
Lemma Inv0_wakes : forall a b, wakes a b -> Inv0 a -> Inv0 b.
Proof.
  intros a b Hab HI. groups HI.
  apply Inv0_of_groups; eauto using TaskOk_wakes, BookOk_wakes.
  - intros t o Hp. assert (Hp' : pend a t = Some o) by (destruct Hab; exact Hp).
    destruct (HW t o Hp') as [H|[H Hc]]; [left; eapply wakes_run; eauto|].
    destruct (wakes_reg a b t o Hab H) as [H'|H']; [right; split; [exact H'|]|left; exact H'].
    destruct Hab; exact Hc.
  - destruct Hab; exact HR.
  - destruct Hab; exact HD.
Qed.

Lemma Inv0_terminate : forall s c, Inv0 s -> Inv0 (terminate s c).
Proof.
  intros s c HI. groups HI. apply Inv0_of_groups; try assumption.
  - intros t o Hp. left. apply (runnable_terminate s c t o). destruct (HW t o Hp) as [H|[H _]]; auto.
  - exact (TaskOk_wakes _ _ (wakes_terminate s c) HT).
  - exact (BookOk_wakes _ _ (wakes_terminate s c) HB).
Qed.

Definition updates (s u : st) : Prop :=
  u = set_ghost (set_proto s (connected u) (hsconf u) (err u) (budget u) (incoming u) (seen u) (rx u)
                           (rx_end u) (wcredit u) (w_end u) (stop_done u) (dq u) (dspace u))
                (arrived u) (delivered u) (discarded u) (d_arrived u) (d_delivered u).

(** an event writes protocol fields, then wakes the matching registrations *)
Lemma Inv0_event_gen : forall s u s', Inv0 s -> wakes u s' -> updates s u ->
  BookOk (set_br u (br s')) -> DataOk u ->
  (forall t o, pend s t = Some o -> registered s t o -> cond s o = false -> cond u o = true ->
               runnable s' t = true) ->
  Inv0 s'.
Proof.
  intros s u s' HI Hw Hu HB' HD' Hwoken. groups HI.
  assert (Hp : forall t o, pend u t = Some o -> pend s t = Some o) by (rewrite Hu; auto).
  assert (Hr : forall t, runnable s t = true -> runnable u t = true) by (rewrite Hu; auto).
  assert (Hg : forall t o, registered s t o -> registered u t o) by (rewrite Hu; auto).
  assert (HTu : TaskOk u) by (rewrite Hu; exact HT).
  assert (HRu : RefOk u) by (rewrite Hu; exact HR).
  apply Inv0_of_groups.
  - intros t o Hp'. assert (Hpu : pend u t = Some o) by (destruct Hw; exact Hp').
    destruct (HW t o (Hp t o Hpu)) as [H|[H Hc]]; [left; exact (wakes_run u s' t Hw (Hr t H))|].
    destruct (wakes_reg u s' t o Hw (Hg t o H)) as [H'|H']; [|left; exact H'].
    destruct (cond u o) eqn:E; [left; eauto|].
    right. split; [exact H'|]. destruct Hw; exact E.
  - exact (TaskOk_wakes u s' Hw HTu).
  - destruct Hw; exact HB'.
  - destruct Hw; exact HRu.
  - destruct Hw; exact HD'.
Qed.

Lemma Inv0_event : forall s u s', Inv0 s -> wakes u s' -> updates s u -> BookOk u -> DataOk u ->
  (forall t o, pend s t = Some o -> registered s t o -> cond s o = false -> cond u o = true ->
               runnable s' t = true) ->
  Inv0 s'.
Proof.
  intros s u s' HI Hw Hu HB. apply Inv0_event_gen; auto.
  pose proof (BookOk_wakes u s' Hw HB) as H. destruct Hw; exact H.
Qed.

(** last premise of [Inv0_event], op by op *)
Ltac woken t o Hp Hreg Hc Hc' :=
  intros t o Hp Hreg; destruct o; cbn [cond registered notify_of] in Hreg |- *; unfold closed; cbn_st;
  intros Hc Hc'; try congruence.

(** an event that only notifies [n] may turn true no condition but those of the operations waiting on [n] *)
Lemma Inv0_notify_event : forall s u n, Inv0 s -> updates s u -> BookOk u -> DataOk u ->
  (forall o, cond s o = false -> cond u o = true -> notify_of o = Some n) ->
  Inv0 (notify_waiters u n).
Proof.
  intros s u n HI Hu HB HD Hn.
  eapply Inv0_event; [exact HI|apply wakes_notify_waiters|exact Hu|exact HB|exact HD|].
  intros t o _ Hreg Hc Hc'. apply runnable_notify_waiters. specialize (Hn o Hc Hc').
  rewrite Hu; cbn_st. destruct o; cbn [registered notify_of] in Hreg, Hn; try discriminate Hn;
    injection Hn as <-; try exact Hreg. exact (proj1 Hreg).
Qed.

Lemma Inv0_PConnected : forall s, Inv0 s -> Inv0 (drv_event s PConnected).
Proof.
  intros s HI. groups HI. apply (Inv0_notify_event s (set_connected s true)); [exact HI|reflexivity|assumption..|].
  intros o; destruct o; cbn [cond notify_of]; unfold closed; cbn_st; intros Hc Hc'; first [reflexivity|congruence].
Qed.
Lemma Inv0_PHsConfirmed : forall s, Inv0 s -> Inv0 (drv_event s PHsConfirmed).
Proof.
  intros s HI. groups HI. apply (Inv0_notify_event s (set_hsconf s true)); [exact HI|reflexivity|assumption..|].
  intros o; destruct o; cbn [cond notify_of]; unfold closed; cbn_st; intros Hc Hc'; first [reflexivity|congruence].
Qed.
Lemma Inv0_PDgramUnblocked : forall s, Inv0 s -> Inv0 (drv_event s PDgramUnblocked).
Proof.
  intros s HI. groups HI. apply (Inv0_notify_event s (set_dspace s true)); [exact HI|reflexivity|assumption..|].
  intros o; destruct o; cbn [cond notify_of]; unfold closed; cbn_st; intros Hc Hc'; first [reflexivity|congruence].
Qed.
Lemma Inv0_PAvailable : forall s d n, Inv0 s -> Inv0 (drv_event s (PAvailable d n)).
Proof.
  intros s d n HI. groups HI.
  apply (Inv0_notify_event s (set_budget s (updb (budget s) d (budget s d + n)))); [exact HI|reflexivity|assumption..|].
  intros o; destruct o; cbn [cond notify_of]; unfold closed; cbn_st; intros Hc Hc'; try congruence.
  eqb_cases; [reflexivity|congruence].
Qed.
Lemma Inv0_PDgram : forall s id, Inv0 s -> Inv0 (drv_event s (PDgram id)).
Proof.
  intros s id HI. groups HI.
  apply (Inv0_notify_event s (set_d_arrived (set_dq s (dq s ++ [id])) (d_arrived s ++ [id])));
    [exact HI|reflexivity|assumption| |].
  - destruct HD as (D1 & D2 & D3). repeat apply conj; try assumption. cbn_st. rewrite D2. symmetry; apply app_assoc.
  - intros o; destruct o; cbn [cond notify_of]; unfold closed; cbn_st; intros Hc Hc'; first [reflexivity|congruence].
Qed.
Lemma Inv0_PCredit : forall s k n, Inv0 s -> Inv0 (drv_event s (PCredit k n)).
Proof.
  intros s k n HI. groups HI. cbn [drv_event]. destruct (negb (seen s k)); [assumption|].
  eapply Inv0_event; [exact HI|apply wakes_wake_writer|reflexivity| |assumption|].
  - exact HB.
  - woken t o Hp Hreg Hc Hc'. eqb_cases; [|congruence]. apply runnable_wake_writer, Hreg.
Qed.
Lemma Inv0_PFinished : forall s k, Inv0 s -> Inv0 (drv_event s (PFinished k)).
Proof.
  intros s k HI. groups HI. cbn [drv_event]. destruct (negb (seen s k)); [assumption|].
  eapply Inv0_event; [exact HI|apply wakes_wake_stopped|reflexivity| |assumption|].
  - exact HB.
  - woken t o Hp Hreg Hc Hc'. eqb_cases; [|congruence]. destruct Hreg. apply runnable_wake_stopped; assumption.
Qed.
Lemma Inv0_PStopped : forall s k, Inv0 s -> Inv0 (drv_event s (PStopped k)).
Proof.
  intros s k HI. groups HI. cbn [drv_event]. destruct (negb (seen s k)); [assumption|].
  pose proof (fun u => wakes_trans _ _ _ (wakes_wake_stopped u k) (wakes_wake_writer _ k)) as Hw.
  eapply Inv0_event; [exact HI|apply Hw|reflexivity| |assumption|].
  - exact HB.
  - woken t o Hp Hreg Hc Hc'; (eqb_cases; [|congruence]).
    + apply runnable_wake_writer. unfold wake_stopped. destruct (memb _ k); exact Hreg.
    + apply (wakes_run _ _ _ (wakes_wake_writer _ k)). destruct Hreg. apply runnable_wake_stopped; assumption.
Qed.

Lemma Inv0_POpened : forall s d k bytes fin, Inv0 s -> Inv0 (drv_event s (POpened d k bytes fin)).
Proof.
  intros s d k bytes fin HI. groups HI. cbn [drv_event]. destruct (seen s k) eqn:Eseen; [assumption|].
  destruct HB as (B1 & B2 & B3 & B4 & B5 & B6 & B7 & B8). destruct HD as (D1 & D2 & D3).
  assert (Hbr : aget (br s) k = None).
  { destruct (aget (br s) k) eqn:E; [|reflexivity]. rewrite B3 in Eseen; congruence. }
  eapply Inv0_event; [exact HI|apply wakes_notify_waiters|reflexivity| | |].
  - repeat apply conj; cbn_st; intros x; try (intros H; eqb_cases; auto; congruence).
    + intros k0 H. unfold upd. destruct (Nat.eqb_spec k0 k); [reflexivity|]. unfold updb in H.
      destruct (Bool.eqb x d); [|eauto]. apply in_app_or in H as [H|[H|[]]]; [eauto|congruence].
    + intros H; eqb_cases; [rewrite (B4 _ (B8 _ H)) in Eseen; discriminate|auto].
  - repeat apply conj; cbn_st; [intros x H; eqb_cases; auto|exact D2|intros x H; eqb_cases; auto; discriminate].
    rewrite (D3 _ Eseen). reflexivity.
  - woken t o Hp Hreg Hc Hc'; eqb_cases; try congruence. apply runnable_notify_waiters, Hreg.
Qed.

Lemma Inv0_PData : forall s k bytes fin, Inv0 s -> Inv0 (drv_event s (PData k bytes fin)).
Proof.
  intros s k bytes fin HI. groups HI. cbn [drv_event].
  destruct (negb (seen s k) || rx_end s k) eqn:E; [assumption|].
  apply orb_false_iff in E as [Eseen Eend]. apply negb_false_iff in Eseen.
  destruct HB as (B1 & B2 & B3 & B4 & B5 & B6 & B7 & B8). destruct HD as (D1 & D2 & D3).
  eapply Inv0_event_gen; [exact HI|apply wakes_wake_reader|reflexivity| | |].
  - rewrite br_wake_reader. repeat apply conj; cbn_st; intros x; rewrite ?aget_arem; auto;
      try (intros H; eqb_cases; auto; congruence).
    + apply B6.
    + intros H; eqb_cases; [rewrite (B8 _ H) in Eend; discriminate|auto].
  - repeat apply conj; cbn_st; auto. intros x H; eqb_cases; auto.
    rewrite (D1 _ H). symmetry; apply app_assoc.
  - woken t o Hp Hreg Hc Hc'. eqb_cases; [|congruence]. apply runnable_wake_reader, Hreg.
Qed.

Lemma Inv0_PReset : forall s k, Inv0 s -> Inv0 (drv_event s (PReset k)).
Proof.
  intros s k HI. groups HI. cbn [drv_event].
  destruct (negb (seen s k)) eqn:Eseen; [assumption|]. apply negb_false_iff in Eseen.
  destruct HB as (B1 & B2 & B3 & B4 & B5 & B6 & B7 & B8). destruct HD as (D1 & D2 & D3).
  eapply Inv0_event_gen; [exact HI|apply wakes_wake_reader|reflexivity| | |].
  - rewrite br_wake_reader. repeat apply conj; cbn_st; intros x; rewrite ?aget_arem; auto;
      try (intros H; eqb_cases; auto; congruence).
    apply B6.
  - repeat apply conj; cbn_st; auto. intros x H; eqb_cases; [discriminate|auto].
  - woken t o Hp Hreg Hc Hc'. eqb_cases; [|congruence]. apply runnable_wake_reader, Hreg.
Qed.

Lemma Inv0_PSpurious : forall s o, Inv0 s -> Inv0 (drv_event s (PSpurious o)).
Proof.
  intros s o. apply Inv0_wakes. cbn [drv_event].
  destruct o; cbn [notify_of];
    auto using wakes_refl, wakes_wake_reader, wakes_wake_writer, wakes_wake_stopped, wakes_notify_waiters.
Qed.
Lemma Inv0_PDrained : forall s, Inv0 s -> Inv0 (drv_event s PDrained).
Proof.
  intros s HI. cbn [drv_event]. destruct (closed s); [|exact HI]. revert HI. apply Inv0_ext. reflexivity.
Qed.

Definition pev_ok (e : pev) : bool := match e with PResetAcked _ => false | _ => true end.
Lemma Inv0_drv_event : forall s e, pev_ok e = true -> Inv0 s -> Inv0 (drv_event s e).
Proof.
  intros s e He HI; destruct e; try discriminate He; try exact (Inv0_terminate s _ HI);
    auto using Inv0_PConnected, Inv0_PHsConfirmed, Inv0_POpened, Inv0_PData, Inv0_PReset, Inv0_PCredit,
      Inv0_PStopped, Inv0_PFinished, Inv0_PAvailable, Inv0_PDgram, Inv0_PDgramUnblocked, Inv0_PDrained,
      Inv0_PSpurious.
Qed.
Lemma pev_no_reset_ack_forall : forall evs, pev_no_reset_ack evs = forallb pev_ok evs.
Proof. induction evs as [|e evs IH]; [reflexivity|]. destruct e; cbn [pev_no_reset_ack forallb pev_ok andb]; auto. Qed.
Lemma Inv0_drv_events : forall evs s, forallb pev_ok evs = true -> Inv0 s -> Inv0 (fold_left drv_event evs s).
Proof. apply fold_left_inv, Inv0_drv_event. Qed.

Lemma Inv0_release : forall s t, Inv0 s -> Inv0 (release s t).
Proof.
  intros s t HI. destruct (pend s t) as [o|] eqn:Ep; [|unfold release; rewrite Ep; exact HI]. groups HI.
  assert (HW' : WakeOk (release s t)).
  { intros t' o' Hp. rewrite pend_release in Hp. destruct (Nat.eqb_spec t' t) as [|Hne]; [discriminate|].
    destruct (release_frame s t) as [-> Ec]. rewrite Ec.
    destruct (HW t' o' Hp) as [H|[H Hc]]; [left; exact H|right; split; [|exact Hc]].
    apply registered_release; assumption. }
  destruct HT as (R & W & N). pose proof (Waits_del _ _ t o N Ep) as N'.
  apply Inv0_of_groups; [exact HW'|clear HW'..]; unfold release; rewrite Ep;
    destruct o; cbn [notify_of]; try assumption.
  all: split; [|split]; cbn_st;
    first [ exact N'
          | apply Owns_del; [intros ? ? [=]; auto|assumption|exact Ep]
          | apply Owns_pend; [assumption|intros ?; rewrite Ep; discriminate|discriminate] ].
Qed.

Lemma Inv0_close_conn : forall s, Inv0 s -> Inv0 (close_conn s).
Proof.
  intros s HI. unfold close_conn. apply Inv0_need_driver, Inv0_terminate. revert HI. apply Inv0_ext. reflexivity.
Qed.

Lemma Inv0_set_refs : forall s da rc nh ic dr dw drn dwk ee, Inv0 s ->
  (da = true -> rc = nh) -> (da = false -> rc = (nh - 1)%Z) ->
  Inv0 (set_h s (recv_h s) (send_h s) (all_read s) rc nh ic dr da dw drn dwk ee).
Proof. intros s da rc nh ic dr dw drn dwk ee HI H1 H2. groups HI. apply Inv0_of_groups; try assumption. split; assumption. Qed.

Lemma Inv0_shift_refs : forall s d, Inv0 s -> Inv0 (set_refs s (refcnt s + d) (nhandles s + d)).
Proof.
  intros s d HI. groups HI. destruct HR as [R1 R2].
  refine (Inv0_set_refs s (driver_alive s) _ _ _ _ _ _ _ _ HI _ _); intros H; [rewrite (R1 H)|rewrite (R2 H)]; lia.
Qed.
Lemma Inv0_add_ref : forall s, Inv0 s -> Inv0 (add_ref s).
Proof. intros s. exact (Inv0_shift_refs s 1). Qed.

Lemma Inv0_drop_ref : forall (s : st) (h : bool),
  Inv0 (set_refs s (refcnt s - 1)%Z (if h then nhandles s - 1 else nhandles s)%Z) -> Inv0 (drop_ref s h).
Proof. intros s h H. apply drop_ref_cases; auto using Inv0_close_conn. Qed.
Lemma Inv0_drop_ref_handle : forall s, Inv0 s -> Inv0 (drop_ref s true).
Proof.
  intros s HI. apply Inv0_drop_ref. exact (Inv0_shift_refs s (-1) HI).
Qed.
Lemma Inv0_drop_ref_driver : forall s, Inv0 s -> driver_alive s = true ->
  Inv0 (drop_ref (set_drv s false false false false) false).
Proof.
  intros s HI Ha. apply Inv0_drop_ref. groups HI. destruct HR as [R1 _].
  refine (Inv0_set_refs s false _ _ _ _ _ _ _ _ HI _ _); [discriminate|]. intros _. cbn_st. rewrite (R1 Ha). reflexivity.
Qed.

(** no future borrows the stream, so no task is pending on it *)
Lemma Inv0_rem_blocked : forall s k (recv : bool), Inv0 s ->
  (if recv then rborrow s k else wborrow s k) = None ->
  Inv0 (if recv then set_br s (arem (br s) k) else set_bw s (arem (bw s) k)).
Proof.
  intros s k recv HI Hb. groups HI. pose proof HT as (R & W & _).
  assert (Hno : forall t, pend s t <> Some ((if recv then ORead else OWrite) k))
    by (destruct recv; eauto using Owns_free).
  destruct recv; apply Inv0_of_groups; try assumption.
  1, 3: intros t o Hp; destruct (HW t o Hp) as [H|[H Hc]]; [left; exact H|right; split; [|exact Hc]];
    destruct o; try exact H; cbn [registered] in *; cbn_st; rewrite aget_arem;
    destruct (Nat.eqb_spec k s0) as [->|]; [destruct (Hno _ Hp)|exact H].
  destruct HB as (B1 & B2 & B3 & B4 & B5 & B6 & B7 & B8). repeat apply conj; try assumption; cbn_st.
  - intros x H. apply B3. eapply aget_arem_sub, H.
  - intros x H. apply B7. eapply aget_arem_sub, H.
Qed.

Lemma Inv0_clear_handle : forall s k (recv : bool), Inv0 s ->
  (if recv then rborrow s k else wborrow s k) = None ->
  Inv0 (if recv then set_recv_h s (upd (recv_h s) k false) else set_send_h s (upd (send_h s) k false)).
Proof.
  intros s k recv HI Hb. groups HI. destruct HT as (R & W & N).
  destruct HB as (B1 & B2 & B3 & B4 & B5 & B6 & B7 & B8).
  destruct recv; apply Inv0_of_groups; try assumption.
  1, 3: split; [|split]; try assumption; cbn_st; eapply Owns_handle; eauto; cbn beta;
    intros t x Hx; unfold upd; destruct (Nat.eqb_spec x k) as [->|]; [congruence|auto].
  all: repeat apply conj; try assumption; cbn_st; intros x H; unfold upd in H;
    destruct (Nat.eqb x k); [discriminate|auto].
Qed.

Lemma Inv0_set_all_read : forall s k, Inv0 s -> rborrow s k = None -> rx_end s k = true ->
  Inv0 (set_all_read s (upd (all_read s) k true)).
Proof.
  intros s k HI Hb He. groups HI. destruct HT as (R & W & N).
  destruct HB as (B1 & B2 & B3 & B4 & B5 & B6 & B7 & B8). apply Inv0_of_groups; try assumption.
  - split; [|split]; try assumption. cbn_st. eapply Owns_handle; eauto. cbn beta.
    intros t x Hx. unfold upd. destruct (Nat.eqb_spec x k) as [->|]; [congruence|auto].
  - repeat apply conj; try assumption. cbn_st. intros x H. eqb_cases; [exact He|exact (B8 _ H)].
Qed.

Lemma Inv0_set_w_end : forall s k, Inv0 s -> wborrow s k = None -> Inv0 (set_w_end s (upd (w_end s) k true)).
Proof.
  intros s k HI Hb. groups HI. destruct HT as (_ & W & _).
  eapply Inv0_event; [exact HI|apply wakes_refl|reflexivity|assumption..|].
  woken t o Hp Hreg Hc Hc'. eqb_cases; [|congruence]. destruct (Owns_free _ _ _ _ _ W Hb _ Hp).
Qed.

Lemma Inv0_stop_rx : forall s k, Inv0 s -> aget (br s) k = None -> seen s k = true ->
  Inv0 (set_rx_end (set_discarded (set_rx s (upd (rx s) k [])) (upd (discarded s) k true)) (upd (rx_end s) k true)).
Proof.
  intros s k HI Hb Hs. groups HI.
  destruct HB as (B1 & B2 & B3 & B4 & B5 & B6 & B7 & B8). destruct HD as (D1 & D2 & D3).
  eapply Inv0_event; [exact HI|apply wakes_refl|reflexivity| | |].
  - repeat apply conj; cbn_st; intros x; auto; try (intros H; eqb_cases; auto; congruence).
    apply B6.
  - repeat apply conj; cbn_st; auto. intros x H; eqb_cases; [discriminate|auto].
  - woken t o Hp Hreg Hc Hc'. eqb_cases; congruence.
Qed.

Lemma Inv0_AppFinish : forall s k, Inv0 s -> Inv0 (step' s (AppFinish k)).
Proof.
  intros s k HI. unfold step', step. apply (guarded_call Inv0); [exact HI|intros Eh Eb].
  apply Inv0_need_driver, Inv0_set_w_end; assumption.
Qed.

Lemma Inv0_AppStop : forall s k, Inv0 s -> Inv0 (step' s (AppStop k)).
Proof.
  intros s k HI. unfold step', step. apply (guarded_call Inv0); [exact HI|intros Eh Eb].
  (* as if the entry in [blocked_readers] were removed first *)
  pose proof (Inv0_rem_blocked s k true HI Eb) as H1.
  apply (Inv0_stop_rx _ k) in H1; [|apply aget_arem_same|exact (inv_rh_seen s HI k Eh)].
  apply Inv0_set_all_read with (k := k) in H1; [|exact Eb|apply upd_same].
  apply Inv0_need_driver. exact H1.
Qed.

Lemma Inv0_HDropSend : forall s k, Inv0 s -> Inv0 (step' s (HDropSend k)).
Proof.
  intros s k HI. unfold step', step. apply (guarded_call Inv0); [exact HI|intros Eh Eb].
  apply Inv0_drop_ref_handle.
  pose proof (Inv0_clear_handle s k false HI Eb) as H1. apply (Inv0_rem_blocked _ k false) in H1; [|exact Eb].
  destruct (closed _); [exact H1|]. apply Inv0_need_driver, Inv0_set_w_end; [exact H1|exact Eb].
Qed.

Lemma Inv0_HDropRecv : forall s k, Inv0 s -> Inv0 (step' s (HDropRecv k)).
Proof.
  intros s k HI. unfold step', step. apply (guarded_call Inv0); [exact HI|intros Eh Eb].
  apply Inv0_drop_ref_handle.
  pose proof (Inv0_clear_handle s k true HI Eb) as H1. cbn_st.
  destruct (all_read s k); [exact H1|].
  apply (Inv0_rem_blocked _ k true) in H1; [|exact Eb].
  destruct (closed _); [exact H1|].
  apply Inv0_need_driver. exact (Inv0_stop_rx _ k H1 (aget_arem_same _ _) (inv_rh_seen s HI k Eh)).
Qed.

Lemma Inv0_drv_poll : forall s evs, forallb pev_ok evs = true -> Inv0 s -> Inv0 (drv_poll s evs).
Proof.
  intros s evs Hok HI. unfold drv_poll.
  destruct (driver_alive s) eqn:Ea; cbn [negb]; [|exact HI].
  assert (H1 : Inv0 (set_drv s true false false (drv_work s))) by (rewrite <- Ea; apply Inv0_set_drv, HI).
  set (s1 := set_drv s true false false (drv_work s)) in *.
  apply (Inv0_drv_events evs _ Hok) in H1.
  pose proof (ctl_alive _ _ (ctl_drv_events evs s1)) as A.
  set (s2 := fold_left drv_event evs s1) in *. change (driver_alive s2 = true) in A.
  destruct (drained s2).
  - apply Inv0_drop_ref_driver; assumption.
  - rewrite <- A. apply Inv0_set_drv, H1.
Qed.

Definition op_free (s : st) (o : op) (n : nat) : Prop :=
  match o with
  | ORead k => recv_h s k = true /\ rborrow s k = None /\ all_read s k = false
  | OWrite k => send_h s k = true /\ wborrow s k = None
  | OStopped k => seen s k = true
  | OOpen _ => seen s n = false
  | _ => True
  end.

Lemma Inv0_unrun : forall s t, Inv0 s -> pend s t = None ->
  Inv0 (set_runnable s (upd (runnable s) t false)).
Proof.
  intros s t HI Hp. groups HI. apply Inv0_of_groups; try assumption.
  intros t' o Hp'. change (pend s t' = Some o) in Hp'. cbn_st. unfold upd. destruct (Nat.eqb_spec t' t) as [->|]; [congruence|]. exact (HW t' o Hp').
Qed.

Lemma borrow_release : forall s t k (recv : bool), Inv0 s ->
  free_borrow (if recv then rborrow s k else wborrow s k) t = true ->
  (if recv then rborrow (release s t) k else wborrow (release s t) k) = None.
Proof.
  intros s t k recv HI Hf.
  assert (Hb : (if recv then rborrow s k else wborrow s k) = None \/
               pend s t = Some ((if recv then ORead else OWrite) k)).
  { unfold free_borrow in Hf. destruct recv; [destruct (rborrow s k) as [t'|] eqn:E|destruct (wborrow s k) as [t'|] eqn:E];
      auto; apply Nat.eqb_eq in Hf; subst t'; right; [exact (inv_rb2 s HI t k E)|exact (inv_wb2 s HI t k E)]. }
  unfold release. destruct Hb as [Hb|Hp].
  - destruct (pend s t) as [o|]; [|exact Hb].
    destruct recv, o; cbn_st; try exact Hb; unfold upd; (destruct (Nat.eqb k s0); [reflexivity|exact Hb]).
  - rewrite Hp. destruct recv; cbn_st; apply upd_same.
Qed.

Lemma op_free_release : forall s t o n, Inv0 s -> poll_ok s t o n = true -> op_free (pre_poll s t) o n.
Proof.
  intros s t o n HI Hok. pose proof (drop_changes_no_protocol_state s t) as P.
  unfold proto_eq, step', step in P; cbn [fst] in P. decompose [and] P. clear P.
  destruct o; cbn [poll_ok op_free] in *; unfold pre_poll; cbn_st; auto.
  - apply negb_true_iff in Hok. congruence.
  - apply andb_true_iff in Hok as [Hok Har]. apply andb_true_iff in Hok as [Hok _].
    apply andb_true_iff in Hok as [Hrh Hf]. apply negb_true_iff in Har.
    repeat split; [congruence|exact (borrow_release s t s0 true HI Hf)|congruence].
  - apply andb_true_iff in Hok as [Hok _]. apply andb_true_iff in Hok as [Hsh Hf].
    split; [congruence|exact (borrow_release s t s0 false HI Hf)].
  - congruence.
Qed.

Lemma Inv0_set_seen : forall s n, Inv0 s -> Inv0 (set_seen s (upd (seen s) n true)).
Proof.
  intros s n HI. groups HI.
  destruct HB as (B1 & B2 & B3 & B4 & B5 & B6 & B7 & B8). destruct HD as (D1 & D2 & D3).
  eapply Inv0_event; [exact HI|apply wakes_refl|reflexivity| | |].
  - repeat apply conj; cbn_st; try assumption; intros x; try (intros H; eqb_cases; solve [auto]).
    intros k H; eqb_cases; eauto.
  - repeat apply conj; cbn_st; try assumption. intros x H; eqb_cases; [discriminate|auto].
  - woken t o Hp Hreg Hc Hc'.
Qed.
Lemma Inv0_new_handle : forall s k (recv : bool), Inv0 s -> seen s k = true ->
  Inv0 (add_ref (if recv then set_recv_h s (upd (recv_h s) k true) else set_send_h s (upd (send_h s) k true))).
Proof.
  intros s k recv HI Hs. apply Inv0_add_ref. groups HI. destruct HT as (R & W & N).
  destruct HB as (B1 & B2 & B3 & B4 & B5 & B6 & B7 & B8).
  destruct recv; apply Inv0_of_groups; try assumption.
  1, 3: split; [|split]; try assumption; cbn_st; eapply Owns_handle; eauto; cbn beta;
    intros t x _; unfold upd; destruct (Nat.eqb x k); tauto.
  all: repeat apply conj; try assumption; cbn_st; intros x H; eqb_cases; auto.
Qed.

(** a successful operation only consumes: no condition turns true, nobody needs waking *)
Lemma Inv0_try_op : forall s o n s' r, Inv0 s -> op_free s o n -> try_op s o n = Some (s', r) -> Inv0 s'.
Proof.
  intros s o n s' r HI Hfree Htry. groups HI.
  destruct HB as (B1 & B2 & B3 & B4 & B5 & B6 & B7 & B8). destruct HD as (D1 & D2 & D3).
  destruct o; cbn [try_op op_free] in *.
  - destruct (connected s); [|destruct (closed s)]; try discriminate; injection Htry as <- <-; assumption.
  - destruct (closed s); [|destruct (connected s)]; try discriminate; injection Htry as <- <-; assumption.
  - destruct (closed s); [|destruct (hsconf s)]; try discriminate; injection Htry as <- <-; assumption.
  - destruct (closed s); [injection Htry as <- <-; assumption|].
    destruct (0 <? budget s d) eqn:Eb; [|discriminate]. injection Htry as <- <-.
    assert (H1 : Inv0 (set_budget s (updb (budget s) d (budget s d - 1)))).
    { eapply Inv0_event; [exact HI|apply wakes_refl|reflexivity|repeat apply conj; assumption..|].
      woken t o Hp Hreg Hc Hc'. eqb_cases; rewrite ?Eb in Hc; try discriminate; congruence. }
    apply (Inv0_set_seen _ n) in H1. apply (Inv0_new_handle _ n false) in H1; [|apply upd_same].
    destruct d; [|exact H1]. apply (Inv0_new_handle _ n true) in H1; [exact H1|apply upd_same].
  - destruct (incoming s d) as [|k rest] eqn:Einc.
    { destruct (closed s); try discriminate; injection Htry as <- <-; assumption. }
    injection Htry as <- <-. apply Inv0_need_driver.
    assert (Hk : seen s k = true) by (apply (B6 d); rewrite Einc; left; reflexivity).
    assert (H1 : Inv0 (set_incoming s (updb (incoming s) d rest))).
    { eapply Inv0_event; [exact HI|apply wakes_refl|reflexivity| |repeat apply conj; assumption|].
      - repeat apply conj; try assumption. cbn_st. intros x y H. eqb_cases; [|eauto].
        apply (B6 d). rewrite Einc. right. exact H.
      - woken t o Hp Hreg Hc Hc'. eqb_cases; rewrite ?Einc in Hc; try discriminate; congruence. }
    apply (Inv0_new_handle _ k true) in H1; [|exact Hk].
    destruct d; [|exact H1]. apply (Inv0_new_handle _ k false) in H1; [exact H1|exact Hk].
  - destruct Hfree as (Hrh & Hrb & Har). destruct (rx s s0) as [|z l] eqn:Erx.
    + destruct (rx_end s s0) eqn:Eend; [|destruct (closed s); try discriminate]; injection Htry as <- <-; try assumption.
      apply Inv0_set_all_read; assumption.
    + injection Htry as <- <-. apply Inv0_need_driver.
      eapply Inv0_event; [exact HI|apply wakes_refl|reflexivity| | |].
      * repeat apply conj; try assumption; cbn_st; intros x H; eqb_cases; auto.
        destruct (B7 _ H) as [_ E]. rewrite E in Erx. discriminate.
      * repeat apply conj; try assumption; cbn_st; intros x H; eqb_cases; auto.
        -- rewrite (D1 _ H), Erx, <- app_assoc, firstn_skipn. reflexivity.
        -- rewrite (B1 _ Hrh) in H. discriminate.
      * woken t o Hp Hreg Hc Hc'. eqb_cases; rewrite ?Erx in Hc; try discriminate; congruence.
  - destruct Hfree as (Hsh & Hwb). destruct (closed s) eqn:Eerr; [injection Htry as <- <-; assumption|].
    destruct (w_end s s0) eqn:Ewe; [injection Htry as <- <-; assumption|].
    destruct (0 <? wcredit s s0) eqn:Ecr; [|discriminate]. injection Htry as <- <-. apply Inv0_need_driver.
    eapply Inv0_event; [exact HI|apply wakes_refl|reflexivity|repeat apply conj; assumption..|].
    woken t o Hp Hreg Hc Hc'. eqb_cases; rewrite ?Ecr in Hc; try discriminate; congruence.
  - destruct (stop_done s s0); [|destruct (closed s)]; try discriminate; injection Htry as <- <-; assumption.
  - destruct (dq s) as [|z l] eqn:Edq.
    + destruct (closed s); try discriminate; injection Htry as <- <-; assumption.
    + injection Htry as <- <-.
      eapply Inv0_event; [exact HI|apply wakes_refl|reflexivity|repeat apply conj; assumption| |].
      * repeat apply conj; try assumption. cbn_st. rewrite D2, <- app_assoc. reflexivity.
      * woken t o Hp Hreg Hc Hc'. rewrite ?Edq in Hc; try discriminate; congruence.
  - destruct (closed s); [|destruct (dspace s)]; try discriminate; injection Htry as <- <-; try assumption.
    apply Inv0_need_driver, HI.
  - destruct (closed s); try discriminate; injection Htry as <- <-; assumption.
Qed.

Lemma Inv0_register : forall s t o n, Inv0 s -> pend s t = None -> op_free s o n -> cond s o = false ->
  Inv0 (register s t o).
Proof.
  intros s t o n HI Hp Hfree Hc. groups HI. pose proof HT as (R & W & N).
  destruct (register_frame s t o) as (Epend & Erun & Econd).
  assert (HW' : WakeOk (register s t o)).
  { intros t' o' H. rewrite Epend in H. unfold upd in H. rewrite Econd, Erun.
    destruct (Nat.eqb_spec t' t) as [->|Hne].
    - injection H as <-. right. split; [apply registered_register|exact Hc].
    - destruct (HW t' o' H) as [Hr|[Hr Hc']]; [left; exact Hr|right; split; [|exact Hc']].
      apply registered_register_other; [exact Hne|exact Hr|]. intros Hn ->.
      (* an entry of [blocked_readers/writers] is only overwritten on a stream nobody borrows *)
      destruct o; try discriminate Hn; cbn [op_free] in Hfree.
      + eapply (Owns_free _ _ _ _ _ R), H. apply Hfree.
      + eapply (Owns_free _ _ _ _ _ W), H. apply Hfree. }
  pose proof (Waits_add _ _ t o N Hp) as N'.
  apply Inv0_of_groups; [exact HW'|clear HW' Epend Erun Econd..];
    unfold register; destruct o; cbn [notify_of op_free] in *; cbn_st; try destruct (memb _ _); try assumption.
  all: try (split; [|split]; cbn_st;
    first [ exact N'
          | apply Owns_add; [intros ? ? [=]; auto|assumption|exact Hp|apply Hfree|cbn beta; tauto]
          | apply Owns_pend; [assumption|intros ?; rewrite Hp; discriminate|discriminate] ]).
  (* a read pends only on an empty buffer *)
  destruct HB as (B1 & B2 & B3 & B4 & B5 & B6 & B7 & B8). destruct Hfree as (Hrh & _).
  cbn [cond] in Hc. apply orb_false_iff in Hc as [Hc _]. apply orb_false_iff in Hc as [Hrx Hend].
  destruct (rx s s0) eqn:Erx; [|discriminate Hrx].
  repeat apply conj; try assumption; cbn_st; intros x; rewrite aget_aset;
    (destruct (Nat.eqb_spec s0 x) as [E|E]; [subst x; auto|auto]).
Qed.

Lemma Inv0_app_poll : forall s t o n, Inv0 s -> Inv0 (fst (app_poll s t o n)).
Proof.
  intros s t o n HI; unfold app_poll.
  destruct (poll_ok s t o n) eqn:Hok; cbn [negb]; [|exact HI]. fold (pre_poll s t).
  assert (Hp2 : pend (pre_poll s t) t = None).
  { unfold pre_poll; cbn_st. rewrite pend_release, Nat.eqb_refl. reflexivity. }
  assert (HI2 : Inv0 (pre_poll s t)) by (apply Inv0_unrun; [apply Inv0_release, HI|exact Hp2]).
  assert (Hfree : op_free (pre_poll s t) o n) by (apply op_free_release; assumption).
  destruct (try_op (pre_poll s t) o n) as [[s' r]|] eqn:Htry; cbn [fst].
  - eapply Inv0_try_op; eassumption.
  - eapply Inv0_register; try eassumption. apply (try_op_none _ o n), Htry.
Qed.

Lemma Inv0_step : forall s l, label_no_reset_ack l = true -> Inv0 s -> Inv0 (step' s l).
Proof.
  intros s l Hok HI. destruct l as [t o n|t|evs| |k|k|k| | |k|k].
  - apply Inv0_app_poll, HI.
  - apply Inv0_release, HI.
  - unfold step', step; cbn [fst]. apply Inv0_drv_poll; [|exact HI].
    cbn [label_no_reset_ack] in Hok. rewrite <- pev_no_reset_ack_forall. exact Hok.
  - unfold step', step; cbn [fst]. destruct (Z.ltb 0 (nhandles s)); auto using Inv0_close_conn.
  - apply Inv0_AppStop, HI.
  - apply Inv0_AppFinish, HI.
  - exact (Inv0_AppFinish s k HI).   (* [reset] has the step of [finish] *)
  - unfold step', step; cbn [fst]. destruct (Z.ltb 0 (nhandles s)); auto using Inv0_add_ref.
  - unfold step', step; cbn [fst]. destruct (Z.ltb 0 (nhandles s)); auto using Inv0_drop_ref_handle.
  - apply Inv0_HDropRecv, HI.
  - apply Inv0_HDropSend, HI.
Qed.

Definition drv_same (a b : st) : Prop :=
  driver_alive a = driver_alive b /\ drv_waker a = drv_waker b /\
  drv_runnable a = drv_runnable b /\ drv_work a = drv_work b.
Lemma drv_ok_same : forall a b, drv_same a b -> drv_ok b -> drv_ok a.
Proof. unfold drv_same, drv_ok. intros a b [A [B [C D]]] H. rewrite A, B, C, D. exact H. Qed.
Lemma drv_same_refl : forall a, drv_same a a.
Proof. unfold drv_same; auto. Qed.
Lemma drv_same_ctl : forall a b, ctl a = ctl b -> drv_same a b.
Proof. unfold ctl, drv_same. intros a b H. injection H; auto. Qed.

Lemma drv_ok_need_driver : forall s, drv_ok s -> drv_ok (need_driver s).
Proof.
  intros s H. rewrite need_driver_nf. unfold drv_ok in *. cbn_st.
  intros Ha. destruct (H Ha) as [[Hr|Hw] _]; rewrite ?Hr, ?Hw, ?orb_true_r; auto.
Qed.

Lemma drv_ok_close_conn : forall s, drv_ok s -> drv_ok (close_conn s).
Proof.
  intros s H. unfold close_conn. apply drv_ok_need_driver.
  eapply drv_ok_same; [apply drv_same_ctl; reflexivity|]. exact H.
Qed.

Lemma drv_ok_drop_ref : forall s h, drv_ok s -> drv_ok (drop_ref s h).
Proof. intros s h H. apply drop_ref_cases; [exact H|]. intros _ _. apply drv_ok_close_conn, H. Qed.

Lemma drv_ok_dead : forall s, driver_alive s = false -> drv_ok s.
Proof. unfold drv_ok. intros; congruence. Qed.

Lemma drv_ok_drv_poll : forall s evs, drv_ok s -> drv_ok (drv_poll s evs).
Proof.
  intros s evs H. unfold drv_poll.
  destruct (driver_alive s) eqn:Ea; cbn [negb]; [|exact H].
  destruct (drained _).
  - apply drv_ok_drop_ref. apply drv_ok_dead. reflexivity.
  - unfold drv_ok. cbn_st. intros _. split; [right; reflexivity | discriminate].
Qed.

Lemma drv_ok_step : forall s l, drv_ok s -> drv_ok (step' s l).
Proof.
  intros s l H. apply (step_cx_rule drv_ok s);
    auto using drv_ok_need_driver, drv_ok_close_conn, drv_ok_drop_ref, drv_ok_drv_poll.
  intros a b E. apply drv_ok_same, drv_same_ctl, cx_ctl, E.
Qed.
