(** Model/PendingAcks.v over Model/AckRanges.v (C03): the set of packet numbers awaiting
    acknowledgement never holds more than MAX_ACK_BLOCKS ranges, whatever order the peer sends
    them in, and no operation panics for packet numbers below 2^64 - 1. *)
From QV Require Import Lib.Tac Lib.Corr Model.AckRanges Model.PendingAcks Proofs.AckRangesProofs.
Import PendingAcks.
Open Scope Z_scope.

Definition wf_op (o : op) : Prop :=
  match o with
  | InsertOne p _ => 0 <= p < U64_MAX
  | SubtractBelow m => 0 <= m < U64_MAX
  | AckDelay _ | Dump => True
  end.

Fixpoint exec (M : Z) (s : t) (os : list op) : option t :=
  match os with
  | [] => Some s
  | o :: r => match step M s o with Some (s', _) => exec M s' r | None => None end
  end.

Lemma insert_one_spec M s p now s' :
  WInv M s -> 0 <= p -> insert_one M s p now = Some s' ->
  WInv M s' /\
  let l1 := AckRanges.insert (ranges s) p (p + 1) in
  wf_from (-1) l1 /\ (forall x, mem l1 x = mem (ranges s) x || (x =? p)) /\
  (Z.of_nat (length l1) <= M -> ranges s' = l1) /\
  (M < Z.of_nat (length l1) ->
     exists a b r, l1 = (a, b) :: r /\ ranges s' = r /\
       (forall x, mem r x = mem l1 x && (b <=? x)) /\
       (forall x y, in_rng a b x = true -> mem r y = true -> x < y)).
Proof.
  intros [Hlen Hwf] Hp H. unfold insert_one in H.
  destruct (U64_MAX <=? p); [discriminate|]. inversion H; subst; clear H.
  unfold WInv. cbn [ranges].
  unfold AckRanges.insert. destruct (p + 1 <=? p) eqn:E; [lia|].
  destruct (insert_range_spec (ranges s) (-1) p (p + 1) Hwf) as [Hw1 Hm1]; [lia|lia|].
  pose proof (insert_range_length (ranges s) p (p + 1)) as Hl1.
  remember (insert_range (ranges s) p (p + 1)) as l1 eqn:Hl1def.
  assert (Hmem : forall x, mem l1 x = mem (ranges s) x || (x =? p)).
  { intros x. rewrite Hm1. f_equal. unfold in_rng. lia. }
  unfold zlen. destruct (M <? Z.of_nat (length l1)) eqn:E2.
  - destruct l1 as [|[a b] r]; [cbn [length] in E2; lia|].
    destruct (pop_min_spec a b r (-1) Hw1) as (Hw2 & Hm2 & Hlow). cbn [pop_min tl length] in *.
    split; [split; [lia|exact Hw2]|].
    split; [exact Hw1|]. split; [exact Hmem|]. split; [lia|].
    intros _. exists a, b, r. repeat split; try reflexivity; assumption.
  - split; [split; [lia|exact Hw1]|]. split; [exact Hw1|]. split; [exact Hmem|].
    split; [reflexivity|lia].
Qed.

Lemma subtract_below_spec M s m s' :
  WInv M s -> subtract_below s m = Some s' ->
  WInv M s' /\ (forall x, mem (ranges s') x = mem (ranges s) x && (m <? x)).
Proof.
  intros [Hlen Hwf] H. unfold subtract_below in H.
  destruct (U64_MAX <=? m); [discriminate|]. inversion H; subst; clear H.
  unfold WInv. cbn [ranges].
  destruct (remove_zero_spec (ranges s) (-1) (m + 1) Hwf) as (Hw & Hmem & Hl); [lia|].
  split; [split; [lia|exact Hw]|]. intros x. rewrite Hmem. f_equal. lia.
Qed.

Lemma step_winv M s o : WInv M s -> wf_op o ->
  exists s' out, step M s o = Some (s', out) /\ WInv M s'.
Proof.
  intros HI Hwf. destruct o as [p now|m|now|]; cbn [step wf_op] in *.
  - destruct (insert_one M s p now) as [s'|] eqn:E.
    + destruct (insert_one_spec M s p now s' HI ltac:(lia) E) as [HI' _].
      eexists _, _. split; [reflexivity|exact HI'].
    + unfold insert_one in E. destruct (U64_MAX <=? p) eqn:E1; [lia|discriminate].
  - destruct (subtract_below s m) as [s'|] eqn:E.
    + destruct (subtract_below_spec M s m s' HI E) as [HI' _].
      eexists _, _. split; [reflexivity|exact HI'].
    + unfold subtract_below in E. destruct (U64_MAX <=? m) eqn:E1; [lia|discriminate].
  - eexists _, _. split; [reflexivity|exact HI].
  - eexists _, _. split; [reflexivity|exact HI].
Qed.

Lemma exec_winv M : forall os s, WInv M s -> Forall wf_op os ->
  exists s' outs, exec M s os = Some s' /\ run_ops M s os = Some outs /\ WInv M s' /\
                  length outs = length os.
Proof.
  induction os as [|o os IH]; intros s HI Hwf.
  - exists s, []. auto.
  - inversion Hwf as [|? ? Ho Hos]; subst.
    destruct (step_winv M s o HI Ho) as (s1 & out & Hs & HI1).
    destruct (IH s1 HI1 Hos) as (s' & outs & He & Hr & HI' & Hl).
    exists s', (out :: outs). cbn [exec run_ops length]. rewrite Hs, Hr, Hl. auto.
Qed.

(** For packet numbers in [0, 2^64 - 1): no panic, at most [M] ranges, and the ranges stay
    canonical, so [insert_one_spec] and [subtract_below_spec] apply at every step. *)
Lemma run_winv M os : 0 <= M -> Forall wf_op os ->
  exists s outs, exec M init os = Some s /\ run_ops M init os = Some outs /\ WInv M s /\
                 length outs = length os.
Proof. intros HM. apply (exec_winv M os init). split; [exact HM|exact I]. Qed.

(** A just-inserted packet number is kept, unless the set had to drop its lowest range. *)
Lemma insert_one_keeps_packet M s p now s' :
  insert_one M s p now = Some s' ->
  mem (ranges s') p = true \/
  (M < Z.of_nat (length (AckRanges.insert (ranges s) p (p + 1))) /\
   ranges s' = tl (AckRanges.insert (ranges s) p (p + 1))).
Proof.
  unfold insert_one. destruct (U64_MAX <=? p); [discriminate|]. intros H. inversion H; subst.
  cbn [ranges]. unfold zlen. destruct (M <? _) eqn:E.
  - right. unfold zlen in E. split; [lia|reflexivity].
  - left. unfold AckRanges.insert. destruct (p + 1 <=? p) eqn:E1; [lia|].
    apply mem_insert_new. lia.
Qed.
