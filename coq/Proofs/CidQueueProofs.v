(** Model/CidQueue.v never panics and keeps its invariant (C03).  Ring arithmetic is done for any
    window size [L > 0] in distance coordinates; the run theorems are at [L = 5], the value the
    fixed [gexec] is written for (a changed [CidQueue::LEN] breaks Props/C03.v). *)
From QV Require Import Lib.Tac Lib.Corr Model.CidQueue.
Import CidQueue.
Open Scope Z_scope.

Lemma upd_length : forall b i v, length (upd b i v) = length b.
Proof.
  induction b as [|x b IH]; intros i v; cbn [upd length]; [reflexivity|].
  destruct i; cbn [length]; [reflexivity|]. rewrite IH. reflexivity.
Qed.

Lemma nth_upd : forall b i j v, (i < length b)%nat ->
  nth j (upd b i v) None = if Nat.eqb i j then v else nth j b None.
Proof.
  induction b as [|x b IH]; intros i j v Hi; cbn [length] in Hi; [lia|].
  destruct i as [|i]; destruct j as [|j]; cbn [upd nth Nat.eqb]; try reflexivity.
  apply IH. lia.
Qed.

Lemma set_length b i v : length (set b i v) = length b.
Proof. apply upd_length. Qed.

Lemma get_set b i j v : 0 <= i < Z.of_nat (length b) -> 0 <= j ->
  get (set b i v) j = if i =? j then v else get b j.
Proof.
  intros Hi Hj. unfold get, set. rewrite nth_upd by lia.
  destruct (Nat.eqb (Z.to_nat i) (Z.to_nat j)) eqn:E1; destruct (i =? j) eqn:E2;
    try reflexivity.
  - apply Nat.eqb_eq in E1. lia.
  - apply Nat.eqb_neq in E1. apply Z.eqb_eq in E2. subst. congruence.
Qed.

Definition accs := list (Z * Z * Z).

Section Ring.
Variable L : Z.
Hypothesis HL : 0 < L.

Lemma clear_length : forall n b cur, length (clear L b cur n) = length b.
Proof.
  induction n as [|n IH]; intros b cur; cbn [clear]; [reflexivity|].
  rewrite set_length. apply IH.
Qed.

(** the slot [k] steps after the cursor *)
Definition at_ (b : list (option data)) (cur k : Z) : option data := get b ((cur + k) mod L).

Lemma at_0 b c : 0 <= c < L -> at_ b c 0 = get b c.
Proof. intros Hc. unfold at_. rewrite Z.add_0_r, Z.mod_small by exact Hc. reflexivity. Qed.

Lemma at_shift b c i k : at_ b ((c + i) mod L) k = at_ b c (i + k).
Proof. unfold at_. rewrite Zplus_mod_idemp_l, Z.add_assoc. reflexivity. Qed.

Lemma at_period b c k : at_ b c (k + L) = at_ b c k.
Proof.
  unfold at_. replace (c + (k + L)) with (c + k + 1 * L) by ring.
  rewrite Z_mod_plus_full. reflexivity.
Qed.

Lemma at_mod b c k : at_ b c (k mod L) = at_ b c k.
Proof. unfold at_. rewrite Zplus_mod_idemp_r. reflexivity. Qed.

Lemma at_set b c i k v :
  Z.of_nat (length b) = L -> 0 <= i < L -> 0 <= k < L ->
  at_ (set b ((c + i) mod L) v) c k = if i =? k then v else at_ b c k.
Proof.
  intros Hb Hi Hk. unfold at_.
  pose proof (Z.mod_pos_bound (c + i) L HL). pose proof (Z.mod_pos_bound (c + k) L HL).
  rewrite get_set by lia.
  destruct (i =? k) eqn:E.
  - apply Z.eqb_eq in E. subst k. rewrite Z.eqb_refl. reflexivity.
  - destruct ((c + i) mod L =? (c + k) mod L) eqn:E2; [|reflexivity].
    (* subtracting [c] modulo [L] recovers the distance *)
    apply Z.eqb_eq in E2. apply (f_equal (fun x => (x - c) mod L)) in E2.
    rewrite !Zminus_mod_idemp_l, !Z.add_simpl_l, !Z.mod_small in E2 by assumption. lia.
Qed.

Lemma at_set_cursor b c v :
  Z.of_nat (length b) = L -> 0 <= c < L -> forall k, 0 <= k < L ->
  at_ (set b c v) c k = if 0 =? k then v else at_ b c k.
Proof.
  intros Hb Hc k Hk. pose proof (at_set b c 0 k v Hb) as H.
  rewrite Z.add_0_r, Z.mod_small in H by exact Hc. apply H; lia.
Qed.

Lemma at_clear : forall n b c k,
  Z.of_nat (length b) = L -> Z.of_nat n <= L -> 0 <= k < L ->
  at_ (clear L b c n) c k = if k <? Z.of_nat n then None else at_ b c k.
Proof.
  induction n as [|n IH]; intros b c k Hb Hn Hk; cbn [clear].
  - destruct (k <? Z.of_nat 0) eqn:E; [lia|reflexivity].
  - rewrite at_set by (rewrite ?clear_length; lia). rewrite IH by lia.
    destruct (Z.of_nat n =? k) eqn:E1; destruct (k <? Z.of_nat n) eqn:E2;
      destruct (k <? Z.of_nat (S n)) eqn:E3; try reflexivity; lia.
Qed.

(** The buffer after [insert]'s clearing loop and store, seen from [rc] steps after the old
    cursor: the wrapped-around slots are among those cleared. *)
Lemma at_insert b c rc idx v :
  Z.of_nat (length b) = L -> 0 <= rc <= idx /\ idx < L + rc -> forall j, 0 <= j < L ->
  at_ (set (clear L b c (Z.to_nat (Z.min rc L))) ((c + idx) mod L) v) ((c + rc) mod L) j =
  if idx - rc =? j then v else if rc + j <? L then at_ b c (rc + j) else None.
Proof.
  intros Hb Hrc j Hj.
  replace ((c + idx) mod L) with (((c + rc) mod L + (idx - rc)) mod L)
    by (rewrite Zplus_mod_idemp_l; f_equal; ring).
  rewrite at_set by (rewrite ?clear_length; lia).
  destruct (idx - rc =? j); [reflexivity|]. rewrite at_shift.
  destruct (rc + j <? L) eqn:E.
  - rewrite at_clear by lia.
    destruct (rc + j <? Z.of_nat (Z.to_nat (Z.min rc L))) eqn:E2; [lia|reflexivity].
  - destruct (Z_lt_le_dec rc L) as [Hlt|Hge].
    + replace (rc + j) with (rc + j - L + L) by ring. rewrite at_period, at_clear by lia.
      destruct (rc + j - L <? Z.of_nat (Z.to_nat (Z.min rc L))) eqn:E2; [reflexivity|lia].
    + pose proof (Z.mod_pos_bound (rc + j) L HL). rewrite <- at_mod, at_clear by lia.
      destruct ((rc + j) mod L <? Z.of_nat (Z.to_nat (Z.min rc L))) eqn:E2; [reflexivity|lia].
Qed.

Lemma scan_nil : forall n b cur k0,
  scan L b cur k0 n = [] -> forall k, k0 <= k < k0 + Z.of_nat n -> at_ b cur k = None.
Proof.
  induction n as [|n IH]; intros b cur k0 H k Hk; [lia|]. cbn [scan] in H. fold (at_ b cur k0) in H.
  destruct (at_ b cur k0) as [d|] eqn:E; [discriminate|].
  destruct (Z.eq_dec k k0) as [->|Hne]; [exact E|]. apply (IH _ _ _ H). lia.
Qed.

Lemma scan_cons : forall n b cur k0 i d rest,
  scan L b cur k0 n = (i, d) :: rest ->
  k0 <= i < k0 + Z.of_nat n /\ at_ b cur i = Some d /\
  (forall k, k0 <= k < i -> at_ b cur k = None).
Proof.
  induction n as [|n IH]; intros b cur k0 i d rest H; [discriminate|]. cbn [scan] in H.
  fold (at_ b cur k0) in H. destruct (at_ b cur k0) as [d0|] eqn:E.
  - inversion H; subst. split; [lia|]. split; [exact E|intros; lia].
  - destruct (IH _ _ _ _ _ _ H) as (H1 & H2 & H3). split; [lia|]. split; [exact H2|].
    intros k Hk. destruct (Z.eq_dec k k0) as [->|Hne]; [exact E|]. apply H3. lia.
Qed.

Lemma iter_active b c d :
  at_ b c 0 = Some d -> iter L b c = (0, d) :: scan L b c 1 (Z.to_nat L - 1).
Proof.
  intros H. unfold iter. destruct (Z.to_nat L) as [|n] eqn:E; [lia|].
  cbn [scan]. fold (at_ b c 0). rewrite H. f_equal. f_equal. lia.
Qed.

(** Only the handshake CID (sequence number 0, at the cursor) has no reset token; any other slot
    holds the accepted frame with sequence number [off + k], whose token id is its CID id. *)
Definition slot_ok (acc : accs) (off k : Z) (d : data) : Prop :=
  match d with
  | (_, None) => k = 0 /\ off = 0
  | (id, Some tk) => tk = id /\ exists rpt, In (off + k, rpt, id) acc
  end.

Lemma slot_ok_shift acc off j k d :
  0 <= j -> 0 <= k -> slot_ok acc off (j + k) d -> slot_ok acc (off + j) k d.
Proof.
  intros Hj Hk. destruct d as [id [tk|]]; cbn [slot_ok]; [|lia].
  rewrite Z.add_assoc. exact (fun H => H).
Qed.

Lemma slot_ok_cons a acc off k d : slot_ok acc off k d -> slot_ok (a :: acc) off k d.
Proof.
  destruct d as [id [tk|]]; cbn [slot_ok]; [|exact (fun H => H)].
  intros [Ht [rpt Hin]]. split; [exact Ht|]. exists rpt. right. exact Hin.
Qed.

(** every processed retire_prior_to has been honoured *)
Definition rpt_le (acc : accs) (o : Z) : Prop :=
  forall seq rpt id, In (seq, rpt, id) acc -> rpt <= o.

Lemma rpt_le_mono acc o o' : rpt_le acc o -> o <= o' -> rpt_le acc o'.
Proof. intros H Ho seq rpt id Hin. specialize (H _ _ _ Hin). lia. Qed.

Lemma rpt_le_cons seq rpt id acc o : rpt_le acc o -> rpt <= o -> rpt_le ((seq, rpt, id) :: acc) o.
Proof. intros H Hr sq rp i [Heq|Hin]; [inversion Heq; subst; exact Hr|exact (H _ _ _ Hin)]. Qed.

Record Inv (s : t) (acc : accs) : Prop := {
  i_len : Z.of_nat (length (buf s)) = L;
  i_cur : 0 <= cursor s < L;
  i_off : 0 <= offset s;
  (* [buffer[cursor]] is occupied *)
  i_act : exists d, at_ (buf s) (cursor s) 0 = Some d;
  i_slot : forall k d, 0 <= k < L -> at_ (buf s) (cursor s) k = Some d ->
             slot_ok acc (offset s) k d;
  i_rpt : rpt_le acc (offset s)
}.

Lemma new_inv id : Inv (new L id) [].
Proof.
  assert (Hat : forall k, 0 <= k < L ->
            at_ (Some (id, None) :: repeat None (Z.to_nat L - 1)) 0 k =
            if k =? 0 then Some (id, None) else None).
  { intros k Hk. unfold at_, get. rewrite Z.add_0_l, Z.mod_small by exact Hk.
    destruct (k =? 0) eqn:E.
    - apply Z.eqb_eq in E. subst k. reflexivity.
    - destruct (Z.to_nat k) as [|n] eqn:En; [lia|]. cbn [nth]. apply nth_repeat. }
  constructor; cbn [new buf cursor offset]; try lia.
  - cbn [length]. rewrite repeat_length. lia.
  - rewrite Hat by lia. eexists. reflexivity.
  - intros k d Hk H. rewrite Hat in H by exact Hk.
    destruct (k =? 0) eqn:E; [|discriminate]. inversion H. cbn [slot_ok]. lia.
  - intros seq rpt id' [].
Qed.

Lemma active_some s acc : Inv s acc -> exists a, active s = Some a.
Proof.
  intros HI. destruct (i_act _ _ HI) as [[a tk] Hact]. rewrite at_0 in Hact by apply (i_cur _ _ HI).
  unfold active. rewrite Hact. eexists. reflexivity.
Qed.

Lemma active_token s acc x tk :
  Inv s acc -> at_ (buf s) (cursor s) 0 = Some (x, Some tk) -> active s = Some tk.
Proof.
  intros HI Hat. destruct (i_slot _ _ HI 0 _ ltac:(lia) Hat) as [-> _].
  rewrite at_0 in Hat by apply (i_cur _ _ HI). unfold active. rewrite Hat. reflexivity.
Qed.

Lemma inv_active_seq s acc :
  Inv s acc ->
  active_seq s = 0 \/ exists rpt id, In (active_seq s, rpt, id) acc.
Proof.
  intros HI. destruct (i_act _ _ HI) as [[a tk] Hact].
  pose proof (i_slot _ _ HI 0 _ ltac:(lia) Hact) as Hok.
  unfold active_seq. destruct tk as [tk|]; cbn [slot_ok] in Hok.
  - right. destruct Hok as [_ [rp Hin]]. rewrite Z.add_0_r in Hin. exists rp, a. exact Hin.
  - left. apply Hok.
Qed.

(** The cursor moves to the first occupied slot, which becomes the active CID: the slots that wrap
    around the ring past the new cursor are among those found empty, and a slot other than the
    handshake CID's carries its token. *)
Lemma advance_inv acc b c off i cid tok :
  Z.of_nat (length b) = L -> 0 <= i < L -> 0 < off + i -> at_ b c i = Some (cid, tok) ->
  (forall k, 0 <= k < i -> at_ b c k = None) ->
  (forall j x, 0 <= j < L -> at_ b c j = Some x -> slot_ok acc off j x) ->
  rpt_le acc (off + i) ->
  exists tk, tok = Some tk /\ Inv (mk b ((c + i) mod L) (off + i)) acc /\
             active (mk b ((c + i) mod L) (off + i)) = Some tk.
Proof.
  intros Hb Hi Hpos Hat Hbefore Hslot Hrpt.
  pose proof (Hslot i _ Hi Hat) as Hoki. destruct tok as [tk|]; [|cbn [slot_ok] in Hoki; lia].
  assert (HI : Inv (mk b ((c + i) mod L) (off + i)) acc).
  { constructor; cbn [buf cursor offset];
      [exact Hb|apply Z.mod_pos_bound, HL|lia| | |exact Hrpt].
    - eexists. rewrite at_shift, Z.add_0_r. exact Hat.
    - intros k x Hk. rewrite at_shift. intros H. destruct (Z_lt_le_dec (i + k) L) as [Hlt|Hge].
      + apply slot_ok_shift; [lia|lia|]. apply Hslot; [lia|exact H].
      + replace (i + k) with (i + k - L + L) in H by ring.
        rewrite at_period, Hbefore in H by lia. discriminate. }
  exists tk. split; [reflexivity|]. split; [exact HI|].
  apply (active_token _ _ cid _ HI). cbn [buf cursor]. rewrite at_shift, Z.add_0_r. exact Hat.
Qed.

Definition insert_post (s : t) (acc : accs) (seq rpt id : Z) (s' : t) (r : insert_result) : Prop :=
  match r with
  | InsOk => Inv s' ((seq, rpt, id) :: acc) /\ offset s' = offset s /\ rpt <= offset s
  | InsRetired lo hi tk =>
      (Inv s' ((seq, rpt, id) :: acc) /\ active s' = Some tk) /\ lo = offset s /\ lo < hi <= lo + L /\
      hi <= offset s' /\ rpt <= offset s' <= seq
  | ErrRetired => s' = s /\ seq < offset s
  | ErrExceedsLimit => s' = s /\ offset s + L <= seq
  end.

Lemma insert_inv s acc seq rpt id :
  Inv s acc -> 0 <= rpt <= seq ->
  exists s' r, insert L s seq rpt id = Some (s', r) /\ insert_post s acc seq rpt id s' r.
Proof.
  intros [Hlen Hcur Hoff [d0 Hact] Hslot Hrpt] Hr.
  unfold insert.
  destruct (seq <? offset s) eqn:E1.
  { eexists _, _. split; [reflexivity|]. cbn. split; [reflexivity|lia]. }
  set (idx := seq - offset s). set (rc := Z.max 0 (rpt - offset s)).
  destruct (L + rc <=? idx) eqn:E2.
  { eexists _, _. split; [reflexivity|]. cbn. split; [reflexivity|lia]. }
  pose proof (at_insert _ (cursor s) rc idx (Some (id, Some id)) Hlen ltac:(lia)) as Hb2.
  set (acc' := (seq, rpt, id) :: acc). set (c1 := (cursor s + rc) mod L) in *.
  set (b2 := set (clear L _ _ _) _ _) in *.
  assert (Hb2len : Z.of_nat (length b2) = L).
  { unfold b2. rewrite set_length, clear_length. exact Hlen. }
  clearbody b2.
  assert (Hok : forall j d, 0 <= j < L -> at_ b2 c1 j = Some d ->
            slot_ok acc' (offset s + rc) j d).
  { intros j d Hj H. rewrite Hb2 in H by exact Hj.
    destruct (idx - rc =? j) eqn:E3.
    - inversion H. split; [reflexivity|]. exists rpt. left. f_equal. f_equal. lia.
    - destruct (rc + j <? L) eqn:E4; [|discriminate].
      apply slot_ok_cons, slot_ok_shift, Hslot; [lia|lia|lia|exact H]. }
  destruct (rc =? 0) eqn:E3.
  - assert (Hc : c1 = cursor s) by (unfold c1; rewrite Z.mod_small; lia).
    rewrite Hc in Hb2, Hok. clear Hc c1.
    eexists _, _. split; [reflexivity|]. cbn [insert_post offset].
    split; [|split; [reflexivity|lia]].
    constructor; cbn [buf cursor offset]; try assumption.
    + rewrite Hb2 by lia. destruct (idx - rc =? 0); [eexists; reflexivity|].
      destruct (rc + 0 <? L) eqn:E4; [|lia]. exists d0. replace (rc + 0) with 0 by lia. exact Hact.
    + intros k d Hk H. replace (offset s) with (offset s + rc) by lia. apply Hok; assumption.
    + apply rpt_le_cons; [exact Hrpt|lia].
  - (* the active CID is retired *)
    clearbody c1.
    assert (Hnew : at_ b2 c1 (idx - rc) = Some (id, Some id)).
    { rewrite Hb2 by lia. rewrite Z.eqb_refl. reflexivity. }
    unfold iter. destruct (scan L b2 c1 0 (Z.to_nat L)) as [|[i [cid tok]] rest] eqn:Es.
    { rewrite (scan_nil _ _ _ _ Es (idx - rc)) in Hnew by lia. discriminate. }
    destruct (scan_cons _ _ _ _ _ _ _ Es) as (Hi & Hati & Hbefore).
    assert (Hile : i <= idx - rc).
    { destruct (Z_le_gt_dec i (idx - rc)) as [Hle|Hgt]; [exact Hle|].
      rewrite Hbefore in Hnew by lia. discriminate. }
    replace (offset s + rc) with rpt in Hok by lia.
    destruct (advance_inv acc' b2 c1 rpt i cid tok Hb2len) as (tk & -> & HI' & Ha);
      [lia|lia|exact Hati|exact Hbefore|exact Hok| |].
    { apply rpt_le_cons; [apply (rpt_le_mono _ _ _ Hrpt)|]; lia. }
    eexists _, _. split; [reflexivity|]. cbn [insert_post offset].
    split; [split; assumption|repeat split; lia].
Qed.

Lemma next_inv s acc :
  Inv s acc ->
  exists s' r, next L s = Some (s', r) /\ Inv s' acc /\
    match r with
    | None => s' = s
    | Some (tk, lo, hi) =>
        lo = offset s /\ hi = offset s' /\ lo < hi < lo + L /\ active s' = Some tk
    end.
Proof.
  intros HI. pose proof HI as [Hlen Hcur Hoff [d0 Hact] Hslot Hrpt].
  unfold next. rewrite (iter_active _ _ _ Hact).
  set (c := cursor s) in *. set (b := buf s) in *.
  destruct (scan L b c 1 (Z.to_nat L - 1)) as [|[i [cid tok]] rest] eqn:Es.
  { eexists _, _. split; [reflexivity|]. split; [exact HI|reflexivity]. }
  destruct (scan_cons _ _ _ _ _ _ _ Es) as (Hi & Hati & Hbefore).
  pose proof (at_set_cursor b c None Hlen Hcur) as Hg.
  destruct (advance_inv acc (set b c None) c (offset s) i cid tok) as (tk & -> & HI' & Ha);
    [rewrite set_length; exact Hlen|lia|lia| | | | |].
  - rewrite Hg by lia. destruct (0 =? i) eqn:E; [lia|exact Hati].
  - intros k Hk. rewrite Hg by lia. destruct (0 =? k) eqn:E; [reflexivity|]. apply Hbefore. lia.
  - intros j x Hj. rewrite Hg by exact Hj. destruct (0 =? j); [discriminate|]. apply Hslot, Hj.
  - apply (rpt_le_mono _ _ _ Hrpt). lia.
  - eexists _, _. split; [reflexivity|]. split; [exact HI'|]. cbn [offset]. repeat split; try lia.
    exact Ha.
Qed.

Lemma update_inv s acc id :
  Inv s acc -> offset s = 0 ->
  exists s', update_initial_cid s id = Some s' /\ Inv s' acc /\ offset s' = 0.
Proof.
  intros HI H0. pose proof HI as [Hlen Hcur Hoff [d0 Hact] Hslot Hrpt].
  unfold update_initial_cid. rewrite H0. cbn [Z.eqb].
  eexists. split; [reflexivity|]. split; [|reflexivity].
  constructor; cbn [buf cursor offset]; try lia.
  - rewrite set_length. exact Hlen.
  - rewrite at_set_cursor by (assumption || lia). eexists. reflexivity.
  - intros k d Hk H. rewrite at_set_cursor in H by assumption.
    destruct (0 =? k) eqn:E.
    + inversion H. cbn [slot_ok]. lia.
    + rewrite <- H0. apply Hslot; assumption.
  - rewrite <- H0. exact Hrpt.
Qed.

End Ring.

Definition accepted (s : t) (o : op) (acc : accs) : accs :=
  match o with
  | Insert seq rpt id =>
      match insert 5 s seq rpt id with
      | Some (_, InsOk) | Some (_, InsRetired _ _ _) => (seq, rpt, id) :: acc
      | _ => acc
      end
  | _ => acc
  end.

Fixpoint gexec (s : t) (acc : accs) (os : list op) : option (t * accs) :=
  match os with
  | [] => Some (s, acc)
  | o :: r =>
      match observe 5 s o with
      | None => None
      | Some (s', _) => gexec s' (accepted s o acc) r
      end
  end.

(** the caller's contract: [retire_prior_to <= sequence] (checked in [Connection::process_payload]
    before [insert]); [update_initial_cid] only during the handshake, i.e. before any insert/next *)
Definition main_op (o : op) : Prop :=
  match o with Insert seq rpt id => 0 <= rpt <= seq | Next => True | _ => False end.
Definition upd_op (o : op) : Prop := match o with Update _ => True | _ => False end.

(** returned retired ranges are non-empty and hold at most [LEN] sequence numbers *)
Definition out_ok (o : op) (out : list Z) : Prop :=
  match o, out with
  | Insert _ _ _, [aseq; _; 1; lo; hi; _] => lo < hi <= lo + 5 /\ hi <= aseq
  | Next, [aseq; _; 1; _; lo; hi] => lo < hi < lo + 5 /\ hi = aseq
  | _, _ => True
  end.

(** besides [out_ok]: the reset token reported is the one issued with the CID active afterwards *)
Inductive out_spec : op -> list Z -> Prop :=
| OutRetired seq rpt id aseq a lo hi :
    lo < hi <= lo + 5 -> hi <= aseq -> out_spec (Insert seq rpt id) [aseq; a; 1; lo; hi; a]
| OutNext a lo hi : lo < hi < lo + 5 -> out_spec Next [hi; a; 1; a; lo; hi]
| OutPlain o aseq a code : out_spec o [aseq; a; code].

Lemma out_spec_ok o out : out_spec o out -> out_ok o out.
Proof.
  intros [seq rpt id aseq a lo hi H1 H2|a lo hi H|[] aseq a code]; cbn [out_ok]; try exact I.
  - split; assumption.
  - split; [exact H|reflexivity].
  - destruct code as [|[]|]; exact I.
  - destruct code as [|[]|]; exact I.
Qed.

Lemma observe_main s acc o :
  Inv 5 s acc -> main_op o ->
  exists s' out, observe 5 s o = Some (s', out) /\ Inv 5 s' (accepted s o acc) /\ out_spec o out.
Proof.
  intros HI Hm. destruct o as [id|seq rpt id| |id]; cbn [main_op] in Hm; try contradiction;
    unfold observe; cbn [step accepted].
  - destruct (insert_inv 5 eq_refl s acc seq rpt id HI Hm) as (s' & r & -> & Hpost).
    assert (HI' : Inv 5 s' match r with InsOk | InsRetired _ _ _ => (seq, rpt, id) :: acc | _ => acc end).
    { destruct r; cbn [insert_post] in Hpost; try apply Hpost; destruct Hpost as [-> _]; exact HI. }
    destruct (active_some _ _ _ HI') as [a Ha].
    destruct r as [|lo hi tk| |]; rewrite Ha; eexists _, _; (split; [reflexivity|]);
      (split; [exact HI'|]); try constructor.
    destruct Hpost as ((_ & Ha') & -> & H2 & H3 & _). rewrite Ha' in Ha. injection Ha as <-.
    constructor; assumption.
  - destruct (next_inv 5 eq_refl s acc HI) as (s' & r & -> & HI' & Hpost).
    destruct (active_some _ _ _ HI') as [a Ha].
    destruct r as [[[tk lo] hi]|]; rewrite Ha; eexists _, _; (split; [reflexivity|]);
      (split; [exact HI'|]); [|constructor].
    destruct Hpost as (-> & -> & H & Ha'). rewrite Ha' in Ha. injection Ha as <-.
    constructor. exact H.
Qed.

Lemma observe_upd s acc o :
  Inv 5 s acc -> offset s = 0 -> upd_op o ->
  exists s' out, observe 5 s o = Some (s', out) /\ Inv 5 s' (accepted s o acc) /\ offset s' = 0
                 /\ out_spec o out.
Proof.
  intros HI H0 Hu. destruct o as [id|seq rpt id| |id]; cbn [upd_op] in Hu; try contradiction.
  destruct (update_inv 5 eq_refl s acc id HI H0) as (s' & Hs & HI' & H0').
  unfold observe. cbn [step accepted]. rewrite Hs.
  destruct (active_some _ _ _ HI') as [a Ha]. rewrite Ha.
  eexists _, _. split; [reflexivity|]. split; [exact HI'|]. split; [exact H0'|constructor].
Qed.

Definition run_ok (s : t) (acc : accs) (os : list op) : Prop :=
  exists s' outs acc', run_ops 5 s os = Some (s', outs) /\ gexec s acc os = Some (s', acc') /\
                       Inv 5 s' acc' /\ Forall2 out_spec os outs.

Lemma run_step s acc o os s' out :
  observe 5 s o = Some (s', out) -> out_spec o out -> run_ok s' (accepted s o acc) os ->
  run_ok s acc (o :: os).
Proof.
  intros Hobs Hok (s2 & outs & acc' & Hr & Hg & HI & Hf).
  exists s2, (out :: outs), acc'. cbn [run_ops gexec]. rewrite Hobs, Hr.
  split; [reflexivity|]. split; [exact Hg|]. split; [exact HI|]. constructor; assumption.
Qed.

Lemma run_main : forall os s acc, Inv 5 s acc -> Forall main_op os -> run_ok s acc os.
Proof.
  induction os as [|o os IH]; intros s acc HI Hm.
  - exists s, [], acc. split; [reflexivity|]. split; [reflexivity|]. split; [exact HI|constructor].
  - inversion Hm as [|? ? Ho Hos]; subst.
    destruct (observe_main s acc o HI Ho) as (s1 & out & Hobs & HI1 & Hok).
    exact (run_step _ _ _ _ _ _ Hobs Hok (IH _ _ HI1 Hos)).
Qed.

Lemma run_upd_then_main : forall pre post s acc,
  Inv 5 s acc -> offset s = 0 -> Forall upd_op pre -> Forall main_op post ->
  run_ok s acc (pre ++ post).
Proof.
  induction pre as [|o pre IH]; intros post s acc HI H0 Hu Hm.
  - apply run_main; assumption.
  - inversion Hu as [|? ? Ho Hos]; subst.
    destruct (observe_upd s acc o HI H0 Ho) as (s1 & out & Hobs & HI1 & H01 & Hok).
    exact (run_step _ _ _ _ _ _ Hobs Hok (IH post _ _ HI1 H01 Hos Hm)).
Qed.

Lemma Forall2_imp {A B} (P Q : A -> B -> Prop) :
  (forall a b, P a b -> Q a b) -> forall l l', Forall2 P l l' -> Forall2 Q l l'.
Proof. intros H l l' HF. induction HF; constructor; auto. Qed.

Lemma gexec_acc_inserted : forall os s acc s' acc',
  gexec s acc os = Some (s', acc') ->
  forall seq rpt id, In (seq, rpt, id) acc' ->
    In (seq, rpt, id) acc \/ In (Insert seq rpt id) os.
Proof.
  induction os as [|o os IH]; intros s acc s' acc' H seq rpt id Hin; cbn [gexec] in H.
  - inversion H; subst. left. exact Hin.
  - destruct (observe 5 s o) as [[s1 out]|]; [|discriminate].
    destruct (IH _ _ _ _ H _ _ _ Hin) as [H1|H1]; [|right; right; exact H1].
    destruct o as [i|sq rp i| |i]; cbn [accepted] in H1; try (left; exact H1).
    destruct (insert 5 s sq rp i) as [[s2 [|lo hi tk| |]]|]; try (left; exact H1);
      (destruct H1 as [H1|H1]; [inversion H1; subst; right; left; reflexivity|left; exact H1]).
Qed.

(** [L = 5]: [gexec], [accepted] and [out_ok] carry the literal; C03's constant must convert to it *)
Lemma cidqueue_never_panics_lemma L : L = 5 -> forall id0 pre post,
  Forall upd_op pre -> Forall main_op post ->
  exists s outs acc,
    run_ops L (new L id0) (pre ++ post) = Some (s, outs) /\
    Forall2 out_ok (pre ++ post) outs /\
    length (buf s) = Z.to_nat L /\ 0 <= cursor s < L /\
    (exists a, active s = Some a) /\
    gexec (new L id0) [] (pre ++ post) = Some (s, acc) /\
    (active_seq s = 0 \/ exists rpt id, In (Insert (active_seq s) rpt id) post) /\
    (forall seq rpt id, In (seq, rpt, id) acc -> rpt <= active_seq s).
Proof.
  intros -> id0 pre post Hu Hm.
  destruct (run_upd_then_main pre post (new 5 id0) [] (new_inv 5 eq_refl id0) eq_refl Hu Hm)
    as (s & outs & acc & Hr & Hg & HI & Hf).
  exists s, outs, acc.
  split; [exact Hr|]. split; [exact (Forall2_imp _ _ out_spec_ok _ _ Hf)|].
  split; [pose proof (i_len _ _ _ HI); lia|]. split; [exact (i_cur _ _ _ HI)|].
  split; [exact (active_some _ _ _ HI)|]. split; [exact Hg|]. split; [|exact (i_rpt _ _ _ HI)].
  destruct (inv_active_seq 5 eq_refl _ _ HI) as [H1|(rp & i & H1)]; [left; exact H1|right].
  destruct (gexec_acc_inserted _ _ _ _ _ Hg _ _ _ H1) as [[]|Hin].
  apply in_app_or in Hin. destruct Hin as [Hin|Hin]; [|exists rp, i; exact Hin].
  exfalso. rewrite Forall_forall in Hu. specialize (Hu _ Hin). exact Hu.
Qed.
