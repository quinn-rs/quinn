(** Content invariant of the Assembler model: every buffered chunk is a slice of the written
    byte sequence [w]; consequences for ordered and unordered reads, for all op sequences. *)
From QV Require Import Lib.Tac Lib.Bytes Lib.Corr Model.RangeSet Model.Assembler Proofs.BytesProofs Proofs.HeapProofs.
From Coq Require Import Permutation.
Open Scope Z_scope.

Lemma zlen_zskipn k l : zlen (zskipn k l) = Z.max 0 (zlen l - Z.max 0 k).
Proof. unfold zlen, zskipn. rewrite skipn_length. lia. Qed.

Lemma zlen_zfirstn k l : zlen (zfirstn k l) = Z.max 0 (Z.min k (zlen l)).
Proof. unfold zlen, zfirstn. rewrite firstn_length. lia. Qed.

Lemma defragment_fields fixed a :
  ordered (defragment fixed a) = ordered a /\ recvd (defragment fixed a) = recvd a /\
  bytes_read (defragment fixed a) = bytes_read a /\ end_ (defragment fixed a) = end_ a.
Proof. unfold defragment. destruct (mark_all _ _ _). cbn. auto. Qed.

Lemma insert_tail_cases fixed a offset bytes alloc a' ok :
  insert_tail fixed a offset bytes alloc = Some (a', ok) ->
  (bytes = [] /\ a' = a) \/
  a' = push_buffer a (mkBuf offset bytes alloc false) \/
  a' = defragment fixed (push_buffer a (mkBuf offset bytes alloc false)).
Proof.
  unfold insert_tail. destruct bytes as [|b0 bs]; [intros [= <- _]; auto|].
  destruct (csub _ _); [|discriminate]. destruct (csub _ _) as [over|]; [|discriminate].
  destruct (_ <? over); intros [= <- _]; auto.
Qed.

Lemma discard_dups_cons ds de r a offset bytes alloc res :
  discard_dups ((ds, de) :: r) a offset bytes alloc = Some res ->
  let n := Z.max 0 (ds - offset) in
  n <= zlen bytes /\ offset + n <= de /\ de - (offset + n) <= zlen bytes - n /\
  discard_dups r (if offset <? ds
                  then push_buffer a (mkBuf offset (zfirstn n bytes) alloc false) else a)
               de (zskipn (de - (offset + n)) (zskipn n bytes)) alloc = Some res.
Proof.
  cbn [discard_dups]. destruct (offset <? ds) eqn:E1; cbv zeta.
  - replace (Z.max 0 (ds - offset)) with (ds - offset) by lia.
    replace (offset + (ds - offset)) with ds by lia.
    destruct (_ && _) eqn:E2; [|discriminate]. rewrite zlen_zskipn in E2. intros H.
    repeat split; [lia|lia|lia|exact H].
  - replace (Z.max 0 (ds - offset)) with 0 by lia. rewrite Z.add_0_r.
    destruct (_ && _) eqn:E2; [|discriminate]. intros H.
    assert (0 <= zlen bytes) by (unfold zlen; lia). repeat split; [lia|lia|lia|exact H].
Qed.

Definition advance (c : buf) (k : Z) : buf :=
  mkBuf (b_off c + k) (zskipn k (b_bytes c)) (b_alloc c) (b_defrag c).

(** The part of [read_loop] after the ordered-mode trimming; [c] is the (possibly trimmed) top of [h]. *)
Definition read_tail (a : t) (h : heap) (c : buf) (bu max_length : Z)
  : option (t * option (Z * list Z)) :=
  if max_length <? blen c then
    match csub bu max_length with
    | Some bu' =>
        Some (mk (ordered a) (recvd a) (replace_top h (advance c max_length)) bu' (allocated a)
                 (bytes_read a + max_length) (end_ a),
              Some (b_off c, zfirstn max_length (b_bytes c)))
    | None => None
    end
  else
    match csub bu (blen c), csub (allocated a) (b_alloc c), pop h with
    | Some bu', Some al, Some (_, h') =>
        Some (mk (ordered a) (recvd a) h' bu' al (bytes_read a + blen c) (end_ a),
              Some (b_off c, b_bytes c))
    | _, _, _ => None
    end.

Lemma read_loop_S f a m ord :
  read_loop (S f) a m ord =
  match data a with
  | [] => Some (a, None)
  | chunk :: _ =>
      if ord then
        if bytes_read a <? b_off chunk then Some (a, None)
        else if bend chunk <=? bytes_read a then
          match csub (buffered a) (blen chunk), csub (allocated a) (b_alloc chunk), pop (data a) with
          | Some bu, Some al, Some (_, h') =>
              read_loop f (mk (ordered a) (recvd a) h' bu al (bytes_read a) (end_ a)) m ord
          | _, _, _ => None
          end
        else if 0 <? bytes_read a - b_off chunk then
          match csub (buffered a) (bytes_read a - b_off chunk) with
          | Some bu => read_tail a (data a) (advance chunk (bytes_read a - b_off chunk)) bu m
          | None => None
          end
        else read_tail a (data a) chunk (buffered a) m
      else read_tail a (data a) chunk (buffered a) m
  end.
Proof.
  cbn [read_loop]. destruct (data a) as [|chunk rest]; [reflexivity|]. destruct ord; [|reflexivity].
  destruct (bytes_read a <? b_off chunk); [reflexivity|].
  destruct (bend chunk <=? bytes_read a).
  - destruct (csub _ _); [|reflexivity]. destruct (csub _ _); [|reflexivity].
    destruct (pop _) as [[top h']|]; reflexivity.
  - cbv zeta. destruct (0 <? _); [|reflexivity]. destruct (csub _ _); reflexivity.
Qed.

Lemma read_tail_cases a c bu m a' res top rest :
  read_tail a (top :: rest) c bu m = Some (a', res) ->
  ordered a' = ordered a /\ recvd a' = recvd a /\
  ((m < blen c /\ res = Some (b_off c, zfirstn m (b_bytes c)) /\
    bytes_read a' = bytes_read a + m /\
    Permutation (data a') (advance c m :: rest)) \/
   (blen c <= m /\ res = Some (b_off c, b_bytes c) /\
    bytes_read a' = bytes_read a + blen c /\ Permutation (data a') rest)).
Proof.
  unfold read_tail. intros H. destruct (m <? blen c) eqn:E.
  - destruct (csub bu m); [|discriminate]. injection H as <- <-.
    cbn [ordered recvd data bytes_read]. split; [reflexivity|]. split; [reflexivity|]. left.
    split; [lia|]. split; [reflexivity|]. split; [reflexivity|]. apply replace_top_perm.
  - destruct (csub bu (blen c)); [|discriminate].
    destruct (csub (allocated a) (b_alloc c)); [|discriminate].
    destruct (pop (top :: rest)) as [[t h']|] eqn:P; [|discriminate]. injection H as <- <-.
    apply pop_perm in P as [P ->]. apply Permutation_cons_inv in P.
    cbn [ordered recvd data bytes_read]. split; [reflexivity|]. split; [reflexivity|]. right.
    split; [lia|]. split; [reflexivity|]. split; [reflexivity|]. symmetry. exact P.
Qed.

Section W.
Variable w : Z -> Z.

Definition wslice (off : Z) (n : nat) : list Z := map (fun i => w (off + Z.of_nat i)) (seq 0 n).

Lemma wslice_length off n : length (wslice off n) = n.
Proof. unfold wslice. now rewrite map_length, seq_length. Qed.

Lemma csub_some a b c : csub a b = Some c -> c = a - b /\ b <= a.
Proof using w. unfold csub. destruct (b <=? a) eqn:E; [|discriminate]. intros [= <-]. lia. Qed.

Lemma wslice_S off n : wslice off (S n) = w off :: wslice (off + 1) n.
Proof.
  unfold wslice. cbn [seq map]. f_equal; [f_equal; lia|].
  rewrite <- seq_shift, map_map. apply map_ext. intros i. f_equal. lia.
Qed.

Lemma wslice_skipn k : forall off n, skipn k (wslice off n) = wslice (off + Z.of_nat k) (n - k).
Proof.
  induction k as [|k IH]; intros off n.
  - cbn [skipn]. f_equal; lia.
  - destruct n as [|n]; [reflexivity|]. rewrite wslice_S. cbn [skipn]. rewrite IH.
    f_equal; lia.
Qed.

Lemma wslice_firstn k : forall off n, firstn k (wslice off n) = wslice off (Nat.min k n).
Proof.
  induction k as [|k IH]; intros off n; [reflexivity|].
  destruct n as [|n]; [reflexivity|]. cbn [Nat.min]. rewrite !wslice_S. cbn [firstn]. now rewrite IH.
Qed.

Lemma wslice_app n : forall off m, wslice off n ++ wslice (off + Z.of_nat n) m = wslice off (n + m).
Proof.
  induction n as [|n IH]; intros off m.
  - cbn [app plus]. replace (off + Z.of_nat 0) with off by lia. reflexivity.
  - cbn [plus]. rewrite !wslice_S. cbn [app]. f_equal. rewrite <- IH. do 2 f_equal. lia.
Qed.

(** An upper bound of the offsets ever inserted, carried by the invariant so that reads provably
    never return bytes beyond it. *)
Variable hi : Z.

Definition is_slice (off : Z) (bytes : list Z) : Prop :=
  bytes = wslice off (length bytes) /\ (bytes = [] \/ (0 <= off /\ off + zlen bytes <= hi)).
Definition good (b : buf) : Prop := is_slice (b_off b) (b_bytes b).

Lemma is_slice_nil off : is_slice off [].
Proof. split; [reflexivity | now left]. Qed.

Lemma nil_or_not {A} (l : list A) : l = [] \/ (0 < length l)%nat.
Proof. destruct l; [now left | right; cbn; lia]. Qed.

Lemma is_slice_skip off bytes k : is_slice off bytes -> 0 <= k ->
  is_slice (off + k) (zskipn k bytes).
Proof.
  unfold is_slice, zskipn. intros [H B] Hk. split.
  - rewrite H at 1. rewrite wslice_skipn, skipn_length. f_equal. lia.
  - destruct (nil_or_not (skipn (Z.to_nat k) bytes)) as [E|E]; [now left|right].
    rewrite skipn_length in E. destruct B as [->|B]; [cbn in E; lia|].
    unfold zlen in *. rewrite skipn_length. lia.
Qed.

Lemma is_slice_first off bytes k : is_slice off bytes -> is_slice off (zfirstn k bytes).
Proof.
  unfold is_slice, zfirstn. intros [H B]. split.
  - rewrite H at 1. rewrite wslice_firstn, firstn_length. reflexivity.
  - destruct B as [->|B]; [left; now rewrite firstn_nil|right].
    unfold zlen in *. rewrite firstn_length. lia.
Qed.

Lemma is_slice_app off b1 b2 : is_slice off b1 -> is_slice (off + zlen b1) b2 -> is_slice off (b1 ++ b2).
Proof.
  unfold is_slice, zlen. intros [H1 B1] [H2 B2]. split.
  - rewrite H1 at 1. rewrite H2 at 1. rewrite wslice_app, app_length. reflexivity.
  - destruct B2 as [->|B2]; [rewrite app_nil_r; exact B1|].
    destruct B1 as [->|B1]; [right; cbn [app length] in *; lia|].
    right. rewrite app_length. lia.
Qed.

Lemma good_dbuf : good dbuf.
Proof. apply is_slice_nil. Qed.

Lemma push_good h x : Forall good h -> good x -> Forall good (push h x).
Proof.
  intros Hh Hx. eapply Permutation_Forall; [symmetry; apply push_perm|]. now constructor.
Qed.

Lemma pop_good h top h' : pop h = Some (top, h') -> Forall good h -> good top /\ Forall good h'.
Proof.
  intros Hp Hh. apply pop_perm in Hp as [P _].
  pose proof (Permutation_Forall P Hh) as F. inversion F; subst. now split.
Qed.

Lemma try_mark_defragment_good c offset : good c -> good (try_mark_defragment c offset).
Proof.
  unfold good, try_mark_defragment. intros H.
  destruct (blen c <=? Z.max 0 (offset - b_off c)) eqn:E; cbn [b_off b_bytes]; [apply is_slice_nil|].
  replace (Z.max (b_off c) offset) with (b_off c + Z.max 0 (offset - b_off c)) by lia.
  apply is_slice_skip; [exact H | lia].
Qed.

Lemma mark_all_good cs : forall offset acc, Forall good cs -> Forall good (fst (mark_all cs offset acc)).
Proof.
  induction cs as [|c r IH]; intros offset acc H; cbn [mark_all]; [constructor|].
  inversion H; subst.
  destruct (mark_all r _ _) as [r' b] eqn:E. cbn [fst].
  constructor; [now apply try_mark_defragment_good|].
  specialize (IH (bend (try_mark_defragment c offset)) (acc + blen (try_mark_defragment c offset)) H3).
  now rewrite E in IH.
Qed.

Lemma rebuild_good cs : forall h offset buffer,
  Forall good cs -> Forall good h -> is_slice offset buffer ->
  Forall good (rebuild cs h offset buffer).
Proof.
  induction cs as [|c r IH]; intros h offset buffer Hcs Hh Hb; cbn [rebuild].
  - destruct buffer; [exact Hh|]. apply push_good; [exact Hh | exact Hb].
  - inversion Hcs; subst.
    destruct (b_defrag c).
    + apply IH; auto. destruct (b_bytes c); [exact Hh | now apply push_good].
    + destruct (b_off c =? offset + zlen buffer) eqn:E.
      * apply IH; auto. apply is_slice_app; [exact Hb|]. apply Z.eqb_eq in E. rewrite <- E. exact H1.
      * destruct buffer as [|b0 bs]; apply IH; auto.
        apply push_good; [exact Hh | exact Hb].
Qed.

Lemma defragment_good fixed a : Forall good (data a) -> Forall good (data (defragment fixed a)).
Proof.
  intros H. unfold defragment.
  destruct (mark_all _ _ _) as [marked nbuf] eqn:E. cbn [data].
  apply rebuild_good; [|constructor|apply is_slice_nil].
  pose proof (mark_all_good (rev (into_sorted_vec (data a)))
                (if fixed && ordered a then bytes_read a else 0) 0) as M.
  rewrite E in M. apply M.
  eapply Permutation_Forall; [apply Permutation_rev|].
  eapply Permutation_Forall; [symmetry; apply into_sorted_vec_perm|]. exact H.
Qed.

Lemma defragment_preserves_content fixed a :
  Forall good (data a) ->
  Forall good (data (defragment fixed a)) /\
  bytes_read (defragment fixed a) = bytes_read a /\
  ordered (defragment fixed a) = ordered a.
Proof.
  intros H. pose proof (defragment_fields fixed a) as (E1 & _ & E3 & _).
  split; [now apply defragment_good | auto].
Qed.

Lemma insert_tail_good fixed a offset bytes alloc a' ok :
  insert_tail fixed a offset bytes alloc = Some (a', ok) ->
  Forall good (data a) -> is_slice offset bytes ->
  Forall good (data a') /\ bytes_read a' = bytes_read a /\ ordered a' = ordered a.
Proof.
  intros H Hd Hs.
  assert (G1 : Forall good (data (push_buffer a (mkBuf offset bytes alloc false))))
    by (apply push_good; [exact Hd | exact Hs]).
  destruct (insert_tail_cases _ _ _ _ _ _ _ H) as [[_ ->]|[->| ->]]; auto.
  destruct (defragment_fields fixed (push_buffer a (mkBuf offset bytes alloc false)))
    as (E1 & _ & E3 & _).
  rewrite E1, E3. split; [now apply defragment_good|auto].
Qed.

Lemma discard_dups_good dups : forall a offset bytes alloc a' offset' bytes',
  discard_dups dups a offset bytes alloc = Some (a', offset', bytes') ->
  Forall good (data a) -> is_slice offset bytes ->
  Forall good (data a') /\ is_slice offset' bytes' /\
  bytes_read a' = bytes_read a /\ ordered a' = ordered a /\ end_ a' = end_ a.
Proof.
  induction dups as [|[ds de] r IH]; intros a offset bytes alloc a' offset' bytes' H Hd Hs.
  - injection H as <- <- <-. auto.
  - apply discard_dups_cons in H as (L1 & L2 & L3 & H). apply IH in H.
    + destruct (offset <? ds); exact H.
    + destruct (offset <? ds); [|exact Hd]. apply push_good; [exact Hd|]. now apply is_slice_first.
    + set (n := Z.max 0 (ds - offset)) in *.
      replace de with (offset + n + (de - (offset + n))) at 1 by lia.
      apply is_slice_skip; [apply is_slice_skip; [exact Hs|]|]; lia.
Qed.

Lemma insert_body_good fixed a offset bytes alloc a' ok :
  insert_body fixed a offset bytes alloc = Some (a', ok) ->
  Forall good (data a) -> is_slice offset bytes ->
  Forall good (data a') /\ bytes_read a' = bytes_read a /\ ordered a' = ordered a.
Proof.
  unfold insert_body. intros H Hd Hs.
  destruct (negb (ordered a)).
  - destruct (RangeSet.replace _ _ _) as [dups recvd'].
    destruct (discard_dups dups a offset bytes alloc) as [[[a1 offset1] bytes1]|] eqn:E; [|discriminate].
    apply discard_dups_good in E as (G & S & B & O & _); [|exact Hd|exact Hs].
    apply insert_tail_good in H; [|exact G|exact S]. cbn [bytes_read ordered] in H. now rewrite <- B, <- O.
  - destruct (offset <? bytes_read a) eqn:E1; [destruct (offset + zlen bytes <=? bytes_read a)|].
    + injection H as <- <-. auto.
    + apply insert_tail_good in H; [exact H|exact Hd|]. apply is_slice_skip; [exact Hs | lia].
    + apply insert_tail_good in H; [exact H|exact Hd|exact Hs].
Qed.

Lemma insert_good fixed a offset bytes alloc a' ok :
  insert fixed a offset bytes alloc = Some (a', ok) ->
  Forall good (data a) -> is_slice offset bytes ->
  Forall good (data a') /\ bytes_read a' = bytes_read a /\ ordered a' = ordered a.
Proof.
  unfold insert. intros H Hd Hs. destruct (alloc <? zlen bytes); [discriminate|].
  destruct bytes as [|b0 bs], fixed; try (injection H as <- <-; auto);
    exact (insert_body_good _ _ _ _ _ _ _ H Hd Hs).
Qed.

Lemma ensure_ordering_good fixed a ord a' :
  ensure_ordering fixed a ord = Some a' -> Forall good (data a) ->
  Forall good (data a') /\ bytes_read a' = bytes_read a /\
  ordered a' = ord /\ (ord = true -> a' = a).
Proof.
  unfold ensure_ordering. intros H Hd.
  destruct ord, (ordered a) eqn:O; cbn [andb negb] in H; try discriminate;
    injection H as <-; auto.
  cbn [data bytes_read ordered]. split; [|split; [|split; [reflexivity|discriminate]]].
  - pose proof (defragment_good fixed a Hd) as G. case (data a); [exact Hd|intros _ _; exact G].
  - destruct (data a); [reflexivity|]. apply (defragment_fields fixed a).
Qed.

Definition read_post (a : t) (ord : bool) (a' : t) (res : option (Z * list Z)) : Prop :=
  Forall good (data a') /\ ordered a' = ordered a /\
  match res with
  | None => bytes_read a' = bytes_read a
  | Some (off, bytes) =>
      is_slice off bytes /\ bytes_read a' = bytes_read a + zlen bytes /\
      (ord = true -> off = bytes_read a)
  end.

Lemma read_tail_good a c bu m ord a' res top rest :
  read_tail a (top :: rest) c bu m = Some (a', res) -> Forall good rest ->
  good c -> 0 <= m -> (ord = true -> b_off c = bytes_read a) ->
  read_post a ord a' res.
Proof.
  intros H Gr Gc Hm Hoff.
  destruct (read_tail_cases _ _ _ _ _ _ _ _ H) as (O & _ & [(L & -> & B & P)|(L & -> & B & P)]);
    (split; [eapply Permutation_Forall; [symmetry; exact P|]|split; [exact O|]]).
  - constructor; [|exact Gr]. apply is_slice_skip; [exact Gc|exact Hm].
  - split; [apply is_slice_first, Gc|]. rewrite zlen_zfirstn. unfold blen in L. split; [lia|exact Hoff].
  - exact Gr.
  - split; [exact Gc|]. split; [exact B|exact Hoff].
Qed.

Lemma read_loop_good fuel : forall a max_length ord a' res,
  read_loop fuel a max_length ord = Some (a', res) ->
  Forall good (data a) -> 0 <= max_length ->
  read_post a ord a' res.
Proof.
  induction fuel as [|f IH]; intros a m ord a' res H Hd Hm;
    assert (Same : read_post a ord a None) by (repeat split; auto);
    [injection H as <- <-; exact Same|].
  rewrite read_loop_S in H.
  destruct (data a) as [|chunk rest] eqn:D; [injection H as <- <-; exact Same|].
  inversion Hd as [|? ? Gc Gr]; subst.
  destruct ord.
  2: { refine (read_tail_good _ _ _ _ _ _ _ _ _ H Gr Gc Hm _). discriminate. }
  destruct (bytes_read a <? b_off chunk) eqn:E1; [injection H as <- <-; exact Same|].
  destruct (bend chunk <=? bytes_read a) eqn:E2.
  { destruct (csub (buffered a) (blen chunk)); [|discriminate].
    destruct (csub (allocated a) (b_alloc chunk)); [|discriminate].
    destruct (pop (chunk :: rest)) as [[top h']|] eqn:P; [|discriminate].
    apply pop_good in P as [_ P]; [|exact Hd].
    apply IH in H; [exact H|exact P|exact Hm]. }
  destruct (0 <? bytes_read a - b_off chunk) eqn:E3.
  - destruct (csub (buffered a) _) as [bu|]; [|discriminate].
    refine (read_tail_good _ _ _ _ _ _ _ _ _ H Gr _ Hm _); [|cbn [b_off advance]; lia].
    apply is_slice_skip; [exact Gc | lia].
  - refine (read_tail_good _ _ _ _ _ _ _ _ _ H Gr Gc Hm _). lia.
Qed.

Lemma read_good a max_length ord a' res :
  read a max_length ord = Some (a', res) -> Forall good (data a) -> 0 <= max_length ->
  read_post a ord a' res.
Proof. apply read_loop_good. Qed.

(** Typed operations of one stream instance; [encode] maps them to the integer interface of
    [Assembler.step], so executions below are executions of exactly the function that the
    correspondence check compares with the Rust code. *)
Inductive op :=
| OInsert (offset alloc : Z) (bytes : list Z)
| ORead (max_length : Z) (ord : bool)
| OEnsure (ord : bool)
| OBytesRead
| OClear
| OProbe.

Definition encode (o : op) : list Z :=
  match o with
  | OInsert off al b => 0 :: off :: al :: b
  | ORead m ord => [1; m; RangeSpec.b2z ord]
  | OEnsure ord => [2; RangeSpec.b2z ord]
  | OBytesRead => [3]
  | OClear => [4]
  | OProbe => [6]
  end.

Definition event := (bool * Z * list Z)%type.
Definition ev_ord (e : event) : bool := fst (fst e).
Definition ev_off (e : event) : Z := snd (fst e).
Definition ev_bytes (e : event) : list Z := snd e.

Definition event_of (o : op) (out : list Z) : list event :=
  match o, out with
  | ORead _ ord, 1 :: off :: bytes => [(ord, off, bytes)]
  | _, _ => []
  end.

Fixpoint exec (a : t) (os : list op) : option (t * list event) :=
  match os with
  | [] => Some (a, [])
  | o :: r =>
      match step a (encode o) with
      | None => None
      | Some (a1, out) =>
          match exec a1 r with
          | None => None
          | Some (a2, evs) => Some (a2, event_of o out ++ evs)
          end
      end
  end.

Definition op_ok (o : op) : Prop :=
  match o with
  | OInsert off al b => 0 <= off /\ is_slice off b
  | ORead m _ => 0 <= m
  | _ => True
  end.

Fixpoint chain (start : Z) (evs : list event) : Prop :=
  match evs with
  | [] => True
  | e :: r => ev_off e = start /\ chain (start + zlen (ev_bytes e)) r
  end.

Definition obytes (evs : list event) : list Z := concat (map ev_bytes (filter ev_ord evs)).

Lemma zbool_b2z b : zbool (RangeSpec.b2z b) = b.
Proof. destruct b; reflexivity. Qed.

Lemma step_cases a o a1 out :
  step a (encode o) = Some (a1, out) ->
  match o with
  | OInsert off al b => event_of o out = [] /\ exists ok, insert true a off b al = Some (a1, ok)
  | ORead m ord =>
      (event_of o out = [] /\ a1 = a) \/
      exists a0 res, ensure_ordering true a ord = Some a0 /\ read a0 m ord = Some (a1, res) /\
        event_of o out = match res with Some (off, b) => [(ord, off, b)] | None => [] end
  | OEnsure ord => event_of o out = [] /\ (a1 = a \/ ensure_ordering true a ord = Some a1)
  | OClear => event_of o out = [] /\ a1 = clear a
  | OBytesRead | OProbe => event_of o out = [] /\ a1 = a
  end.
Proof.
  destruct o as [off al b | m ord | ord | | | ]; cbn [encode step step_with];
    try rewrite zbool_b2z; try (intros [= <- <-]; auto).
  - destruct (insert true a off b al) as [[a' [|]]|]; intros [= <- <-]; eauto.
  - destruct (ensure_ordering true a ord) as [a0|]; [|intros [= <- <-]; auto].
    destruct (read a0 m ord) as [[a2 res]|] eqn:R; [|discriminate].
    intros H. right. exists a0, res. destruct res as [[off b]|]; injection H as <- <-; auto.
  - destruct (ensure_ordering true a ord) as [a0|]; intros [= <- <-]; auto.
Qed.

Lemma exec_app os1 : forall a os2 a1 e1 a2 e2,
  exec a os1 = Some (a1, e1) -> exec a1 os2 = Some (a2, e2) ->
  exec a (os1 ++ os2) = Some (a2, e1 ++ e2).
Proof.
  induction os1 as [|o r IH]; intros a os2 a1 e1 a2 e2 H1 H2; cbn [exec app] in *.
  - injection H1 as <- <-. exact H2.
  - destruct (step a (encode o)) as [[a0 out]|]; [|discriminate].
    destruct (exec a0 r) as [[a3 e3]|] eqn:E; [|discriminate]. injection H1 as <- <-.
    rewrite (IH _ _ _ _ _ _ E H2), app_assoc. reflexivity.
Qed.

Lemma exec_invariant (I : t -> list event -> Prop) :
  (forall a evs o a1 out, step a (encode o) = Some (a1, out) -> op_ok o -> I a evs ->
                          I a1 (evs ++ event_of o out)) ->
  forall os a pre a' new,
    Forall op_ok os -> exec a os = Some (a', new) -> I a pre -> I a' (pre ++ new).
Proof.
  intros Step. induction os as [|o r IH]; intros a pre a' new Hok H Iv; cbn [exec] in H.
  - injection H as <- <-. now rewrite app_nil_r.
  - inversion Hok as [|? ? Ho Hr]; subst.
    destruct (step a (encode o)) as [[a1 out]|] eqn:S; [|discriminate].
    destruct (exec a1 r) as [[a2 evs']|] eqn:X; [|discriminate]. injection H as <- <-.
    rewrite app_assoc. exact (IH _ _ _ _ Hr X (Step _ _ _ _ _ S Ho Iv)).
Qed.

Lemma chain_snoc evs e : forall s,
  chain s evs -> ev_off e = s + zlen (concat (map ev_bytes evs)) -> chain s (evs ++ [e]).
Proof.
  induction evs as [|e' r IH]; intros s C E; cbn [app chain map concat] in *.
  - rewrite zlen_nil in E. split; [lia|exact I].
  - destruct C as [C1 C2]. split; [exact C1|]. apply IH; [exact C2|].
    rewrite E. unfold zlen. rewrite app_length. lia.
Qed.

Lemma chain_slice evs : forall s,
  chain s evs -> Forall (fun e => is_slice (ev_off e) (ev_bytes e)) evs ->
  is_slice s (concat (map ev_bytes evs)).
Proof.
  induction evs as [|e r IH]; intros s C F; cbn [chain map concat] in *; [apply is_slice_nil|].
  destruct C as [<- C]. inversion F; subst. apply is_slice_app; auto.
Qed.

Definition content_inv (a : t) (evs : list event) : Prop :=
  Forall good (data a) /\ Forall (fun e => is_slice (ev_off e) (ev_bytes e)) evs /\
  chain 0 (filter ev_ord evs) /\ (ordered a = true -> bytes_read a = zlen (obytes evs)).

Lemma ensure_content a ord a0 evs :
  ensure_ordering true a ord = Some a0 -> content_inv a evs ->
  content_inv a0 evs /\ ordered a0 = ord.
Proof.
  intros H (G & S & C & B). destruct (ensure_ordering_good _ _ _ _ H G) as (G0 & B0 & O0 & T0).
  split; [|exact O0]. split; [exact G0|]. split; [exact S|]. split; [exact C|].
  intros Oa. rewrite O0 in Oa. rewrite (T0 Oa) in *. apply B. now rewrite O0.
Qed.

Lemma read_content a m ord a1 res evs :
  read a m ord = Some (a1, res) -> 0 <= m -> ordered a = ord -> content_inv a evs ->
  content_inv a1 (evs ++ match res with Some (off, b) => [(ord, off, b)] | None => [] end).
Proof.
  intros H Hm Oa (G & S & C & B). destruct (read_good _ _ _ _ _ H G Hm) as (G1 & O1 & R).
  unfold content_inv, obytes in *. rewrite O1, Oa in *.
  destruct res as [[off b]|]; [|rewrite app_nil_r, R; auto].
  destruct R as (Sl & Br & Off). rewrite filter_app, Forall_app. cbn [filter ev_ord fst].
  split; [exact G1|]. split; [auto|]. destruct ord; [|rewrite app_nil_r; split; [exact C|discriminate]].
  specialize (B eq_refl). rewrite map_app, concat_app. split; [|intros _].
  - apply chain_snoc; [exact C|]. cbn [ev_off fst snd]. rewrite (Off eq_refl), B. lia.
  - cbn [map concat ev_bytes snd]. rewrite app_nil_r. unfold zlen in *. rewrite app_length. lia.
Qed.

Lemma step_content a evs o a1 out :
  step a (encode o) = Some (a1, out) -> op_ok o -> content_inv a evs ->
  content_inv a1 (evs ++ event_of o out).
Proof.
  intros H Hok Kv. apply step_cases in H. destruct o as [off al b | m ord | ord | | | ].
  - destruct H as (-> & ok & H), Hok as [Ho Hs], Kv as (G & Kv). rewrite app_nil_r.
    destruct (insert_good _ _ _ _ _ _ _ H G Hs) as (G1 & B1 & O1).
    unfold content_inv. rewrite B1, O1. auto.
  - destruct H as [(-> & ->)|(a0 & res & E & R & ->)]; [now rewrite app_nil_r|].
    destruct (ensure_content _ _ _ _ E Kv) as [K0 O0]. exact (read_content _ _ _ _ _ _ R Hok O0 K0).
  - destruct H as (-> & [->|E]); rewrite app_nil_r; [exact Kv|apply (ensure_content _ _ _ _ E Kv)].
  - destruct H as (-> & ->). now rewrite app_nil_r.
  - destruct H as (-> & ->), Kv as (_ & Kv). rewrite app_nil_r. split; [constructor|exact Kv].
  - destruct H as (-> & ->). now rewrite app_nil_r.
Qed.

Lemma content_init : content_inv init [].
Proof. split; [constructor|]. split; [constructor|]. split; [exact I|reflexivity]. Qed.

Lemma exec_content os a' evs :
  Forall op_ok os -> exec init os = Some (a', evs) -> content_inv a' evs.
Proof.
  intros Hok H. exact (exec_invariant content_inv step_content os init [] a' evs Hok H content_init).
Qed.

Theorem ordered_prefix os a' evs :
  Forall op_ok os -> exec init os = Some (a', evs) ->
  obytes evs = wslice 0 (length (obytes evs)) /\
  (obytes evs = [] \/ zlen (obytes evs) <= hi) /\
  chain 0 (filter ev_ord evs) /\
  (ordered a' = true -> bytes_read a' = zlen (obytes evs)).
Proof.
  intros Hok H. destruct (exec_content _ _ _ Hok H) as (_ & S & C & B).
  assert (Sl : is_slice 0 (obytes evs)).
  { apply chain_slice; [exact C|]. rewrite Forall_forall in *. intros e He.
    apply filter_In in He as [He _]. exact (S e He). }
  destruct Sl as [E [L|L]]; auto. repeat split; auto. right. lia.
Qed.

(** Every chunk returned by any read, ordered or not, equals the written
    sequence at its offset. *)
Theorem reads_exact os a' evs :
  Forall op_ok os -> exec init os = Some (a', evs) ->
  Forall (fun e => ev_bytes e = wslice (ev_off e) (length (ev_bytes e)) /\
                   (ev_bytes e = [] \/ (0 <= ev_off e /\ ev_off e + zlen (ev_bytes e) <= hi))) evs.
Proof. intros Hok H. exact (proj1 (proj2 (exec_content _ _ _ Hok H))). Qed.

End W.
