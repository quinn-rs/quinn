(** AckIter safety after [scan_ack_blocks], and the [Iter] iterator: fuel, panics, round trip of
    whole payloads. *)
From QV Require Import Lib.Tac Lib.Bytes Lib.Corr Model.Varint Model.Frames
  Proofs.BytesProofs Proofs.VarintProofs Proofs.FramesProofs Proofs.FramesTotal.
Open Scope Z_scope.

(** [scan_loop] reads (gap, block) pairs, [AckIter] (block, gap) pairs: the block at the head of
    a walk is the one the scan read a step earlier, so the stretch [pre] the scan accepted has to
    be walkable behind any block [b] that reaches down to [smallest], whatever its bytes [Bb]. *)
Definition walks (smallest : Z) (pre : list Z) : Prop :=
  forall largest b Bb fuel,
    largest - b = smallest -> v62 b -> b <= largest ->
    (forall x, get_var (Bb ++ x) = DOk b x) -> (1 <= length Bb)%nat ->
    (length (Bb ++ pre) <= fuel)%nat ->
    exists rs, ack_iter fuel largest (Bb ++ pre) = AOk ((smallest, largest) :: rs) /\
               Forall (range_ok smallest) rs.

Lemma walks_nil smallest : walks smallest [].
Proof.
  intros largest b Bb fuel <- _ Hb HB HlB Hf. rewrite app_length in Hf.
  destruct fuel as [|k]; [lia|]. rewrite (ack_iter_step k largest b) by (assumption || lia).
  cbn [get_var Varint.decode tl]. rewrite ack_iter_nil. now exists [].
Qed.

Lemma walks_cons smallest gap G block B pre :
  v62 gap -> (forall x, get_var (G ++ x) = DOk gap x) ->
  v62 block -> (forall x, get_var (B ++ x) = DOk block x) -> (1 <= length B)%nat ->
  block <= smallest - (gap + 2) ->
  walks (smallest - (gap + 2) - block) pre -> walks smallest (G ++ B ++ pre).
Proof.
  unfold v62. intros Hg HG Hbl HB HlB H2 Hit largest b Bb fuel <- Hbv Hb HBb HlBb Hf.
  unfold v62 in Hbv.
  destruct fuel as [|k]; [rewrite app_length in Hf; lia|].
  rewrite (ack_iter_step k largest b), HG by (assumption || lia).
  rewrite !u64_add_some, u64_sub_some by lia.
  destruct (Hit (largest - (b + gap + 2)) block B k) as (rs & -> & Hall);
    [lia|exact Hbl|lia|exact HB|exact HlB| |].
  { rewrite !app_length in Hf. rewrite app_length. lia. }
  eexists. split; [reflexivity|]. constructor.
  - unfold range_ok. cbn [fst snd]. lia.
  - eapply Forall_impl; [|exact Hall]. intros [lo hi]. unfold range_ok. cbn [fst snd]. lia.
Qed.

Lemma ack_iter_scan fuel : forall n smallest bs r4 u,
  scan_loop fuel n smallest bs = DOk u r4 -> all_bytes bs = true ->
  exists pre, bs = pre ++ r4 /\ walks smallest pre.
Proof.
  induction fuel as [|k IH]; intros n smallest bs r4 u Hs Hb; cbn [scan_loop] in Hs;
    destruct (n <=? 0); try discriminate.
  1,2: injection Hs as _ <-; exists []; split; [reflexivity|apply walks_nil].
  apply bind_get_var_inv in Hs as (gap & G & r1 & -> & Hg & _ & HG & Hb1 & Hs); [|exact Hb].
  pose proof Hg as Hg'. unfold v62 in Hg'. rewrite u64_add_some in Hs by lia.
  destruct (u64_sub smallest (gap + 2)) as [s1|] eqn:E1; [|discriminate].
  apply u64_sub_inv in E1 as [H1 ->].
  apply bind_get_var_inv in Hs as (block & B & r2 & -> & Hbl & HlB & HB & Hb2 & Hs); [|exact Hb1].
  destruct (u64_sub _ block) as [s2|] eqn:E2; [|discriminate].
  apply u64_sub_inv in E2 as [H2 ->].
  destruct (IH _ _ _ _ _ Hs Hb2) as (pre & -> & Hit).
  exists (G ++ B ++ pre). split; [now rewrite <- !app_assoc|].
  apply (walks_cons smallest gap G block B); (assumption || lia).
Qed.

Ltac inv_body H :=
  repeat first
    [ discriminate H
    | apply bind_ok_inv in H; destruct H as (? & ? & _ & H)
    | match type of H with (if ?c then _ else _) = _ => destruct c end ].

Lemma frame_body_ack_inv ty r0 largest delay additional ecn r :
  frame_body ty r0 = DOk (Ack largest delay additional ecn) r ->
  body_ack ty r0 = DOk (Ack largest delay additional ecn) r.
Proof.
  intros H. unfold frame_body in H.
  repeat match type of H with
         | (if ?c then _ else _) = _ => destruct c
         end; try exact H; try discriminate H.
  all: unfold body_reset, body_stop, body_crypto, body_new_token, body_stream, body_var1,
         body_var2, body_new_cid, body_u64, body_close_conn, body_close_app, body_datagram,
         body_ack_freq in H; inv_body H.
Qed.

(** C03: an ACK frame produced by the decoder can be iterated without panic; the ranges lie in
    [0, largest], highest first, pairwise separated. *)
Lemma ack_iter_safe bs largest delay additional ecn r :
  all_bytes bs = true ->
  try_next bs = DOk (Ack largest delay additional ecn) r ->
  exists lo rs, ack_ranges largest additional = AOk ((lo, largest) :: rs) /\
                0 <= lo <= largest /\ Forall (range_ok lo) rs.
Proof.
  intros Hb H. unfold try_next in H.
  apply bind_get_var_inv in H as (ty & G0 & r0 & -> & _ & _ & _ & Hb0 & H); [|exact Hb].
  apply frame_body_ack_inv in H. rewrite body_ack_tail in H.
  apply bind_get_var_inv in H as (l & G1 & r1 & -> & Hl & _ & _ & Hb1 & H); [|exact Hb0].
  apply bind_get_var_inv in H as (d & G2 & r2 & -> & _ & _ & _ & Hb2 & H); [|exact Hb1].
  apply bind_get_var_inv in H as (n & G3 & r3 & -> & _ & _ & _ & Hb3 & H); [|exact Hb2].
  apply bind_ok_inv in H as (u & r4 & Es & H). apply ack_tail_inv in H as [-> ->].
  unfold scan_ack_blocks in Es.
  apply bind_get_var_inv in Es as (first & G4 & r5 & -> & Hf & HlG4 & HG4 & Hb5 & Es); [|exact Hb3].
  destruct (u64_sub l first) as [s|] eqn:E5; [|discriminate]. apply u64_sub_inv in E5 as [H5 ->].
  destruct (ack_iter_scan _ _ _ _ _ _ Es Hb5) as (pre & -> & Hit).
  replace (firstn _ _) with (G4 ++ pre).
  2:{ rewrite app_assoc. symmetry. apply firstn_app_exact. rewrite !app_length. lia. }
  destruct (Hit l first G4 (length (G4 ++ pre)) eq_refl Hf H5 HG4 ltac:(lia) (le_n _))
    as (rs & Hrs & Hall).
  exists (l - first), rs. unfold ack_ranges, v62 in *. split; [exact Hrs|]. split; [lia|exact Hall].
Qed.

Lemma try_next_shorter bs f r :
  all_bytes bs = true -> try_next bs = DOk f r ->
  (length r < length bs)%nat /\ all_bytes r = true.
Proof.
  intros Hb H. pose proof (try_next_total bs Hb) as HT. rewrite H in HT.
  destruct HT as (pre & -> & Hl). rewrite app_length. split; [lia|].
  now apply all_bytes_app in Hb.
Qed.

Lemma iter_all_fuel f1 : forall f2 bs last,
  all_bytes bs = true -> (length bs <= f1)%nat -> (length bs <= f2)%nat ->
  iter_all f1 bs last = iter_all f2 bs last.
Proof.
  induction f1 as [|k IH]; intros f2 bs last Hb H1 H2.
  - destruct bs; [|cbn [length] in H1; lia]. destruct f2; reflexivity.
  - destruct bs as [|b t]; [destruct f2; reflexivity|].
    destruct f2 as [|k2]; [cbn [length] in H2; lia|].
    cbn [iter_all]. destruct (try_next (b :: t)) as [f r|e|] eqn:E; try reflexivity.
    destruct (try_next_shorter _ _ _ Hb E) as [Hl Hr]. f_equal.
    apply IH; [exact Hr|lia|lia].
Qed.

Definition item_ok (i : item) : Prop :=
  match i with
  | IFrame f => exists o, render f = Some o
  | IErr _ e => is_err e
  | IPanic | IFuel => False
  end.

Lemma render_ok bs f r :
  all_bytes bs = true -> try_next bs = DOk f r -> exists o, render f = Some o.
Proof.
  intros Hb H. destruct f; cbn [render]; try (eexists; reflexivity).
  destruct (ack_iter_safe _ _ _ _ _ _ Hb H) as (lo & rs & -> & _). eexists; reflexivity.
Qed.

Lemma iter_all_ok fuel : forall bs last,
  all_bytes bs = true -> (length bs <= fuel)%nat -> Forall item_ok (iter_all fuel bs last).
Proof.
  induction fuel as [|k IH]; intros bs last Hb Hf.
  - destruct bs; [constructor|cbn [length] in Hf; lia].
  - destruct bs as [|b t]; [constructor|]. cbn [iter_all].
    pose proof (try_next_total (b :: t) Hb) as HT.
    destruct (try_next (b :: t)) as [f r|e|] eqn:E.
    + destruct (try_next_shorter _ _ _ Hb E) as [Hl Hr]. constructor.
      * cbn [item_ok]. exact (render_ok _ _ _ Hb E).
      * apply IH; [exact Hr|cbn [length] in *; lia].
    + constructor; [exact HT|constructor].
    + contradiction.
Qed.

Lemma render_items_ok l : Forall item_ok l -> exists o, render_items l = Some o.
Proof.
  induction 1 as [|i l Hi _ IH]; [now exists []|].
  destruct IH as (o & Ho). destruct i; cbn [item_ok] in Hi; try contradiction; cbn [render_items].
  - destruct Hi as (a & ->). rewrite Ho. eexists; reflexivity.
  - rewrite Ho. eexists; reflexivity.
Qed.

(** Covers [try_next] and the [AckIter] walk the hook performs on every decoded ACK. *)
Lemma decode_never_panics bs : all_bytes bs = true -> exists o, decode_out bs = Some o.
Proof.
  intros Hb. unfold decode_out, iter. destruct bs as [|b t]; [eexists; reflexivity|].
  destruct (render_items_ok _ (iter_all_ok (length (b :: t)) (b :: t) None Hb (le_n _))) as (o & ->).
  eexists; reflexivity.
Qed.

Lemma iter_step b f r fuel last :
  b <> [] -> try_next (b ++ r) = DOk f r -> (length (b ++ r) <= fuel)%nat ->
  exists k, (length r <= k)%nat /\
    iter_all fuel (b ++ r) last = IFrame f :: iter_all k r (new_last (b ++ r) last).
Proof.
  intros Hne H Hf. destruct b as [|x t]; [congruence|]. cbn [app] in *.
  destruct fuel as [|k]; [cbn [length] in Hf; lia|].
  exists k. split; [cbn [length] in Hf; rewrite app_length in Hf; lia|].
  cbn [iter_all]. now rewrite H.
Qed.

Lemma payload_roundtrip_fuel max_len fs :
  Forall (fun f => wf_frame f = true /\ is_close f = false) fs ->
  exists p, encode_all max_len fs = Some p /\
    forall fuel last, (length p <= fuel)%nat -> iter_all fuel p last = map IFrame fs.
Proof.
  induction 1 as [|f tl [Hwf Hnc] _ IH].
  - exists []. split; [reflexivity|]. intros fuel last _. destruct fuel; reflexivity.
  - destruct IH as (p & Hp & Hit).
    destruct (frame_roundtrip true max_len f Hwf Hnc) as (b & Hb & Hrt).
    exists (b ++ p). cbn [encode_all]. rewrite Hb, Hp. split; [reflexivity|].
    intros fuel last Hf.
    assert (Hne : b <> []).
    { intros ->. specialize (Hrt []). cbn [app] in Hrt. discriminate Hrt. }
    specialize (Hrt p).
    replace (absorb true f p) with f in Hrt by reflexivity.
    replace (if self_delimiting true f then p else []) with p in Hrt
      by (destruct f; reflexivity).
    destruct (iter_step b f p fuel last Hne Hrt Hf) as (k & Hk & ->).
    cbn [map]. f_equal. apply Hit. exact Hk.
Qed.

Lemma payload_roundtrip max_len fs :
  fs <> [] -> Forall (fun f => wf_frame f = true /\ is_close f = false) fs ->
  exists p, encode_all max_len fs = Some p /\ iter p = Some (map IFrame fs).
Proof.
  intros Hne Hall. destruct (payload_roundtrip_fuel max_len fs Hall) as (p & Hp & Hit).
  exists p. split; [exact Hp|]. unfold iter.
  destruct p as [|x t] eqn:Ep.
  - destruct fs as [|f tl]; [congruence|]. specialize (Hit 0%nat None (le_n _)). discriminate Hit.
  - rewrite Hit by apply le_n. reflexivity.
Qed.
