(** ArrayRangeSet model: representation invariant (ascending, non-empty, disjoint and
    NON-ADJACENT ranges) and abstract-set semantics of [insert]. *)
From QV Require Import Lib.Tac Lib.Corr Lib.RangeSpec Model.ArrayRangeSet.
Open Scope Z_scope.

(** Strictly after the predecessor's end: neighbouring ranges neither overlap nor touch. *)
Fixpoint wfb (lo : Z) (l : aset) : Prop :=
  match l with
  | [] => True
  | (s, e) :: r => lo < s /\ s < e /\ wfb e r
  end.

Definition wf (l : aset) : Prop := exists lo, wfb lo l.

Definition mem (x : Z) (l : aset) : Prop := exists s e, In (s, e) l /\ s <= x < e.

Lemma wfb_weaken lo lo' l : lo' <= lo -> wfb lo l -> wfb lo' l.
Proof. destruct l as [|[s e] r]; cbn [wfb]; intros; auto. intuition lia. Qed.

Lemma mem_nil x : ~ mem x [].
Proof. intros (s & e & [] & _). Qed.

Lemma mem_cons x s e l : mem x ((s, e) :: l) <-> (s <= x < e) \/ mem x l.
Proof.
  split.
  - intros (s' & e' & [E|I] & H); [inversion E; subst; now left | right; now exists s', e'].
  - intros [H|(s' & e' & I & H)]; [exists s, e; split; [now left|exact H] | exists s', e'; split; [now right|exact H]].
Qed.

Lemma wfb_in lo l s e : wfb lo l -> In (s, e) l -> lo < s < e.
Proof.
  revert lo; induction l as [|[a b] r IH]; intros lo W I; [destruct I|].
  cbn [wfb] in W. destruct W as (W1 & W2 & W3). destruct I as [E|I]; [inversion E; subst; lia|].
  specialize (IH b W3 I). lia.
Qed.

Lemma wfb_mem_gt lo l x : wfb lo l -> mem x l -> lo < x.
Proof. intros W (s & e & I & H). pose proof (wfb_in lo l s e W I). lia. Qed.

Lemma merge_next_spec t : forall b lo cs ce,
  wfb b t -> cs <= b -> cs < ce -> lo < cs ->
  wfb lo (merge_next cs ce t) /\
  (forall x, mem x (merge_next cs ce t) <-> (cs <= x < ce) \/ mem x t).
Proof.
  induction t as [|[ns ne] t' IH]; intros b lo cs ce W Hc Hlt Hlo; cbn [merge_next].
  - split; [cbn [wfb]; auto|]. intros x. rewrite mem_cons. reflexivity.
  - cbn [wfb] in W. destruct W as (W1 & W2 & W3).
    destruct (ns <=? ce) eqn:E.
    + destruct (IH ne lo cs (Z.max ne ce) W3) as [I1 I2]; try lia.
      split; [exact I1|]. intros x. rewrite I2, mem_cons.
      (* [cs, max ne ce) is the union of [cs, ce) and [ns, ne), as cs <= ns <= ce *)
      intuition lia.
    + split; [cbn [wfb]; intuition lia|]. intros x. rewrite !mem_cons. reflexivity.
Qed.

(** Such an [x] witnesses that inserting [xs, xe) adds something. *)
Lemma new_point lo s e t xs xe x :
  wfb lo ((s, e) :: t) -> xs <= x < xe -> x < s \/ x = e ->
  exists x, xs <= x < xe /\ ~ mem x ((s, e) :: t).
Proof.
  intros (_ & Hse & W) Hx Hout. exists x. split; [exact Hx|].
  rewrite mem_cons. intros [M|M]; [lia|]. apply (wfb_mem_gt _ _ _ W) in M. lia.
Qed.

Lemma insert_at_spec l : forall lo xs xe,
  wfb lo l -> lo < xs -> xs < xe ->
  let '(b, l') := insert_at xs xe l in
  wfb lo l' /\ (forall x, mem x l' <-> mem x l \/ xs <= x < xe) /\
  (b = true <-> exists x, xs <= x < xe /\ ~ mem x l).
Proof.
  induction l as [|[rs re] t IH]; intros lo xs xe W Hlo Hlt; cbn [insert_at].
  - split; [cbn [wfb]; auto|]. split.
    + intros x. rewrite mem_cons. tauto.
    + split; [intros _; exists xs; split; [lia | apply mem_nil] | auto].
  - pose proof (fun x => new_point lo rs re t xs xe x W) as New.
    cbn [wfb] in W. destruct W as (W1 & W2 & W3).
    destruct (re <? xs) eqn:E1.
    + specialize (IH re xs xe W3 ltac:(lia) Hlt). destruct (insert_at xs xe t) as [b t'].
      destruct IH as (I1 & I2 & I3). split; [cbn [wfb]; auto|]. split.
      * intros x. rewrite !mem_cons, I2. tauto.
      * (* no point of [xs, xe) lies in [rs, re) *)
        rewrite I3. split; intros (x & Hx & Hn); exists x; rewrite mem_cons in *; intuition lia.
    + destruct (xe <? rs) eqn:E2.
      { split; [cbn [wfb]; intuition lia|]. split; [|split; [intros _; apply (New xs); lia|auto]].
        intros x. rewrite !mem_cons. tauto. }
      set (rs' := if xs <? rs then xs else rs).
      assert (Hrs' : rs' = Z.min xs rs) by (unfold rs'; destruct (xs <? rs) eqn:E4; lia).
      destruct (xe <=? re) eqn:E3.
      * split; [cbn [wfb]; intuition lia|]. split; [intros x; rewrite !mem_cons; intuition lia|].
        destruct (xs <? rs) eqn:E4; [split; [intros _; apply (New xs); lia|auto]|].
        (* [xs, xe) lies within [rs, re) *)
        split; [discriminate|]. intros (x & Hx & Hn). exfalso. apply Hn. rewrite mem_cons. left. lia.
      * destruct (merge_next_spec t re lo rs' xe W3) as [M1 M2]; try lia.
        split; [exact M1|]. split; [|split; [intros _; apply (New re); lia|auto]].
        intros x. rewrite M2, mem_cons. intuition lia.
Qed.

(** [insert] on a well-formed set: the result is well-formed, denotes the union, and the
    returned flag is true iff some integer of the range was not yet in the set. *)
Theorem array_insert_correct l xs xe : wf l ->
  let '(b, l') := ArrayRangeSet.insert xs xe l in
  wf l' /\ (forall x, mem x l' <-> mem x l \/ xs <= x < xe) /\
  (b = true <-> exists x, xs <= x < xe /\ ~ mem x l).
Proof.
  intros [lo W]. unfold ArrayRangeSet.insert.
  destruct (xe <=? xs) eqn:E.
  - split; [now exists lo|]. split; [intros x; intuition lia|].
    split; [discriminate | intros (x & Hx & _); lia].
  - pose proof (insert_at_spec l (Z.min lo (xs - 1)) xs xe) as S.
    destruct (insert_at xs xe l) as [b l'].
    destruct S as (S1 & S2 & S3); [apply (wfb_weaken lo); [lia | exact W] | lia | lia |].
    split; [now exists (Z.min lo (xs - 1)) | auto].
Qed.
