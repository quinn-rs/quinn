(** StreamSys: one stream, two peers.  Sender = SendBuffer model, network = the set of frames
    produced so far (a frame may be delivered any number of times, in any order, or never),
    receiver = Assembler model.  The composition theorem follows from the SendBuffer soundness
    (every produced frame is a slice of what was written) and the Assembler prefix theorem. *)
From QV Require Import Lib.Tac Lib.Bytes Lib.Corr Model.RangeSet Model.Assembler Model.SendBuffer
  Proofs.HeapProofs Proofs.AssemblerProofs Proofs.SendBufferProofs Proofs.AssemblerOnceProofs Proofs.RunInduction.
Open Scope Z_scope.

Module A := AssemblerProofs.
Module S := SendBufferProofs.

Inductive sys_op :=
| SSend (o : S.op)                 (* sender side: write / poll_transmit / ack / loss / 0-RTT restart *)
| SDeliver (i : nat) (alloc : Z)   (* the network delivers the i-th frame produced so far *)
| SRecv (o : A.op).                (* receiver application: read / ensure_ordering / clear / probes *)

Record sys := mkSys {
  sb : SendBuffer.t;
  written : list Z;
  frames : list S.frame;
  asm : Assembler.t;
  events : list A.event
}.

Definition sys_init : sys := mkSys SendBuffer.init [] [] Assembler.init [].

Definition recv_step (st : sys) (o : A.op) : option sys :=
  match Assembler.step (asm st) (A.encode o) with
  | None => None
  | Some (a1, out) =>
      Some (mkSys (sb st) (written st) (frames st) a1 (events st ++ A.event_of o out))
  end.

(** [None] = the model panics or the schedule is not a schedule of the system (delivery of a
    frame that does not exist or whose copy loop did not complete; a receiver-side insert that
    does not come from the network) *)
Definition sys_step (st : sys) (o : sys_op) : option sys :=
  match o with
  | SSend so =>
      match SendBuffer.step (sb st) (S.encode so) with
      | None => None
      | Some (s1, out) =>
          Some (mkSys s1 (S.written_after (written st) so) (frames st ++ S.frame_of so out)
                      (asm st) (events st))
      end
  | SDeliver i alloc =>
      match nth_error (frames st) i with
      | Some (true, rs, re, d) =>
          if 0 <=? rs then recv_step st (A.OInsert rs alloc d) else None
      | _ => None
      end
  | SRecv (A.OInsert _ _ _) => None
  | SRecv ro => recv_step st ro
  end.

Fixpoint sys_exec (st : sys) (os : list sys_op) : option sys :=
  match os with
  | [] => Some st
  | o :: r =>
      match sys_step st o with
      | None => None
      | Some st1 => sys_exec st1 r
      end
  end.

Definition sched_ok (o : sys_op) : Prop :=
  match o with
  | SRecv (A.ORead m _) => 0 <= m
  | _ => True
  end.

(** the written sequence as a function of the offset *)
Definition wof (W : list Z) (x : Z) : Z := nth (Z.to_nat x) W 0.

Lemma firstn_as_map (l : list Z) : forall k, (k <= length l)%nat ->
  firstn k l = map (fun i => nth i l 0) (seq 0 k).
Proof.
  induction l as [|x l IH]; intros k Hk.
  - cbn in Hk. replace k with 0%nat by lia. reflexivity.
  - destruct k as [|k]; [reflexivity|]. cbn [firstn seq map nth]. f_equal.
    rewrite <- seq_shift, map_map. rewrite IH by (cbn in Hk; lia). reflexivity.
Qed.

Lemma nth_skipn_add (l : list Z) : forall a i, nth i (skipn a l) 0 = nth (a + i) l 0.
Proof.
  induction l as [|x l IH]; intros a i.
  - rewrite skipn_nil. destruct i, a; reflexivity.
  - destruct a as [|a]; [reflexivity|]. cbn [skipn plus nth]. apply IH.
Qed.

Lemma wslice_wof W off n : 0 <= off -> off + Z.of_nat n <= zlen W ->
  A.wslice (wof W) off n = S.slice W off (Z.of_nat n).
Proof.
  intros H0 H1. unfold S.slice, SendBuffer.slice, zlen in *. rewrite Nat2Z.id.
  rewrite firstn_as_map by (rewrite skipn_length; lia).
  unfold A.wslice. apply map_ext. intros i. rewrite nth_skipn_add. unfold wof. f_equal. lia.
Qed.

Lemma slice_is_wslice W rs d : 0 <= rs -> d = S.slice W rs (zlen d) ->
  A.is_slice (wof W) (zlen W) rs d.
Proof.
  intros Hrs Hd. destruct d as [|d0 dt] eqn:Ed; [apply A.is_slice_nil|]. rewrite <- Ed in *.
  assert (L : rs + zlen d <= zlen W).
  { apply (f_equal (@length Z)) in Hd. rewrite S.slice_zlen, firstn_length, skipn_length in Hd.
    unfold zlen. rewrite Ed in *. cbn [length] in *. lia. }
  split; [|right; lia]. rewrite wslice_wof by (unfold zlen in *; lia). exact Hd.
Qed.

Lemma is_slice_hi_mono w hi hi' off b : hi <= hi' -> A.is_slice w hi off b -> A.is_slice w hi' off b.
Proof. unfold A.is_slice. intros H [E [B|B]]; split; auto. right. lia. Qed.

Lemma wof_prefix W X x : 0 <= x < zlen W -> wof (W ++ X) x = wof W x.
Proof. unfold wof, zlen. intros H. apply app_nth1. lia. Qed.

(** What holds of every state a schedule reaches, whatever the written sequence grows into later:
    the sender invariant, every frame produced so far is a slice of what was written, and the
    receiver's history is an Assembler execution whose inserts are all such slices. *)
Definition sys_inv (st : sys) : Prop :=
  S.inv (written st) (sb st) /\ Forall (S.frame_ok (written st)) (frames st) /\
  exists ros,
    (forall X, Forall (A.op_ok (wof (written st ++ X)) (zlen (written st ++ X))) ros) /\
    A.exec Assembler.init ros = Some (asm st, events st).

Lemma recv_step_inv st ro st1 :
  sys_inv st -> recv_step st ro = Some st1 ->
  (forall X, A.op_ok (wof (written st ++ X)) (zlen (written st ++ X)) ro) -> sys_inv st1.
Proof.
  unfold recv_step. intros (Hi & Hf & ros & Ok & Ex) R Rok.
  destruct (Assembler.step (asm st) (A.encode ro)) as [[a1 out]|] eqn:E; [|discriminate].
  injection R as <-. unfold sys_inv. cbn [sb written frames asm events].
  split; [exact Hi|]. split; [exact Hf|]. exists (ros ++ [ro]). split.
  - intro X. apply Forall_app. split; [apply Ok|constructor; [apply Rok|constructor]].
  - apply (A.exec_app _ _ _ _ _ _ _ Ex). cbn [A.exec]. rewrite E, app_nil_r. reflexivity.
Qed.

Lemma sys_step_inv st o st1 : sys_inv st -> sched_ok o -> sys_step st o = Some st1 -> sys_inv st1.
Proof.
  intros G Ho St. pose proof G as (Hi & Hf & ros & Ok & Ex).
  destruct o as [so | i alloc | ro]; cbn [sys_step] in St.
  - destruct (SendBuffer.step (sb st) (S.encode so)) as [[s1 out]|] eqn:E; [|discriminate].
    injection St as <-. unfold sys_inv. cbn [written sb frames asm events].
    apply S.step_inv with (W := written st) in E as [I1 F1]; [|exact Hi].
    assert (Ext : exists X, S.written_after (written st) so = written st ++ X)
      by (destruct so; cbn [S.written_after]; eauto using app_nil_r).
    destruct Ext as [X1 EW]. rewrite EW in I1, F1 |- *.
    split; [exact I1|]. split.
    + apply Forall_app. split; [|exact F1].
      eapply Forall_impl; [|exact Hf]. intros f. apply S.frame_ok_prefix.
    + exists ros. split; [|exact Ex]. intro X. rewrite <- app_assoc. apply Ok.
  - destruct (nth_error (frames st) i) as [[[[c rs] re] d]|] eqn:N; [|discriminate].
    destruct c; [|discriminate]. destruct (0 <=? rs) eqn:Ers; [|discriminate].
    apply (recv_step_inv _ _ _ G St). intros X. cbn [A.op_ok]. split; [lia|].
    apply nth_error_In in N. rewrite Forall_forall in Hf.
    destruct (S.frame_ok_prefix _ X _ (Hf _ N)) as [Hd _]; [lia|].
    apply slice_is_wslice; [lia | exact Hd].
  - destruct ro; try discriminate; apply (recv_step_inv _ _ _ G St);
      intros X; cbn [A.op_ok]; auto.
Qed.

Lemma sys_exec_inv os : forall st st',
  sys_inv st -> Forall sched_ok os -> sys_exec st os = Some st' -> sys_inv st'.
Proof.
  intros st st' G Hok.
  apply (run_invariant sys_step (fun s => s) sys_exec (fun _ => eq_refl) (fun _ _ _ => eq_refl)
           sched_ok sys_inv); [|exact Hok|exact G].
  intros s o Ho Gs. destruct (sys_step s o) eqn:St; [exact (sys_step_inv _ _ _ Gs Ho St)|exact I].
Qed.

(** every schedule from the initial state is an Assembler execution on slices of what was written *)
Lemma sys_exec_init sched st' :
  Forall sched_ok sched -> sys_exec sys_init sched = Some st' ->
  exists ros, Forall (A.op_ok (wof (written st')) (zlen (written st'))) ros /\
              A.exec Assembler.init ros = Some (asm st', events st').
Proof.
  intros Hok H.
  destruct (sys_exec_inv sched sys_init st') as (_ & _ & ros & Ok & Ex); [|exact Hok|exact H|].
  - split; [apply S.inv_init|]. split; [constructor|]. exists []. split; [constructor|reflexivity].
  - exists ros. specialize (Ok []). rewrite app_nil_r in Ok. auto.
Qed.

Theorem stream_no_alteration sched st' :
  Forall sched_ok sched -> sys_exec sys_init sched = Some st' ->
  let W := written st' in
  let evs := events st' in
  A.obytes evs = firstn (length (A.obytes evs)) W /\
  A.chain 0 (filter A.ev_ord evs) /\
  Forall (fun e => A.ev_bytes e = S.slice W (A.ev_off e) (zlen (A.ev_bytes e)) /\
                   (A.ev_bytes e = [] \/ 0 <= A.ev_off e /\ A.ev_off e + zlen (A.ev_bytes e) <= zlen W)) evs.
Proof.
  intros Hok H. destruct (sys_exec_init _ _ Hok H) as (ros & Ok & Ex). cbn zeta.
  pose proof (A.ordered_prefix _ _ _ _ _ Ok Ex) as (P1 & P2 & P3 & _).
  pose proof (A.reads_exact _ _ _ _ _ Ok Ex) as R.
  split; [|split; [exact P3|]].
  - destruct P2 as [E|B]; [rewrite E; reflexivity|].
    rewrite P1 at 1. rewrite wslice_wof by (unfold zlen in *; lia).
    exact (S.slice_zlen _ 0 _).
  - eapply Forall_impl; [|exact R]. intros e [E B]. split; [|exact B].
    destruct B as [B|B]; [rewrite B; reflexivity|].
    rewrite E at 1. unfold zlen in *. now rewrite wslice_wof by (unfold zlen; lia).
Qed.

Theorem stream_exactly_once sched st' x :
  Forall sched_ok sched -> sys_exec sys_init sched = Some st' ->
  AssemblerOnceProofs.cnt x (events st') <= 1.
Proof.
  intros Hok H. destruct (sys_exec_init _ _ Hok H) as (ros & Ok & Ex).
  eapply AssemblerOnceProofs.delivered_at_most_once; eauto.
Qed.
