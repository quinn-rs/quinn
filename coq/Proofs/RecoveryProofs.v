(** Proofs about Model/Recovery.v: the loss-detection timer invariant for all operation sequences,
    the re-arm on datagram receipt, the PTO deadline and what firing the PTO does. *)
From QV Require Import Lib.Tac Model.SendGate Model.Recovery Proofs.RunInduction.
Open Scope Z_scope.

(** [loss_time_and_space] and, with something ack-eliciting in flight, [pto_time_and_space] are the
    same three-fold of [pick_min] over the spaces. *)

Lemma is_some_pick_min : forall acc o i, is_some (pick_min acc o i) = is_some acc || is_some o.
Proof. intros [[y j]|] [x|] i; cbn; try reflexivity. destruct (x <? y); reflexivity. Qed.

Lemma pick_min_some : forall acc o i t j,
  pick_min acc o i = Some (t, j) -> acc = Some (t, j) \/ (o = Some t /\ j = i).
Proof.
  intros [[y k]|] [x|] i t j E; cbn in E; try discriminate; auto.
  - destruct (x <? y); [right; inversion E|left]; auto.
  - right. inversion E. auto.
Qed.

Lemma pick_min3_some : forall o0 o1 o2 t i,
  pick_min (pick_min (pick_min None o0 0) o1 1) o2 2 = Some (t, i) ->
  (i = 0 /\ o0 = Some t) \/ (i = 1 /\ o1 = Some t) \/ (i = 2 /\ o2 = Some t).
Proof.
  intros o0 o1 o2 t i E.
  apply pick_min_some in E as [E|(E & ->)]; [|auto].
  apply pick_min_some in E as [E|(E & ->)]; [|auto].
  apply pick_min_some in E as [E|(E & ->)]; [discriminate|auto].
Qed.

Definition pto_cand (x : space) (d : Z) : option Z :=
  if has_in_flight x then option_map (fun t => t + d) (tlae x) else None.

Lemma is_some_pto_cand : forall x d, is_some (pto_cand x d) = has_in_flight x && is_some (tlae x).
Proof. intros x d. unfold pto_cand. destruct (has_in_flight x), (tlae x); reflexivity. Qed.

Lemma pto_cand_some : forall x d t, pto_cand x d = Some t ->
  has_in_flight x = true /\ exists t0, tlae x = Some t0 /\ t = t0 + d.
Proof.
  unfold pto_cand. intros x d t E. destruct (has_in_flight x); [|discriminate].
  destruct (tlae x) as [t0|]; [|discriminate]. inversion E. eauto.
Qed.

Lemma pick_pto_cand : forall acc x d i,
  (if has_in_flight x then match tlae x with Some t => pto_pick acc (t + d) i | None => acc end else acc)
  = pick_min acc (pto_cand x d) i.
Proof. intros acc x d i. unfold pto_cand. destruct (has_in_flight x), (tlae x), acc as [[e j]|]; reflexivity. Qed.

Lemma pto_time_and_space_eq : forall m c s, (ae_total s =? 0) = false ->
  pto_time_and_space m c s =
  pick_min (pick_min (pick_min None (pto_cand (sI s) (base c * backoff m s)) 0)
                     (pto_cand (sH s) (base c * backoff m s)) 1)
           (if handshaking s then None else pto_cand (sD s) (base c * backoff m s + mad c * backoff m s)) 2.
Proof.
  intros m c s Z0. unfold pto_time_and_space. rewrite Z0. cbv zeta. rewrite !pick_pto_cand.
  destruct (handshaking s); [|apply pick_pto_cand].
  destruct (has_in_flight (sD s)); reflexivity.
Qed.

Lemma pto_some : forall m c s,
  is_some (pto_time_and_space m c s) = if ae_total s =? 0 then true else pto_eligible s.
Proof.
  intros m c s. destruct (ae_total s =? 0) eqn:Z0.
  - unfold pto_time_and_space. rewrite Z0. reflexivity.
  - rewrite (pto_time_and_space_eq m c s Z0), !is_some_pick_min, !is_some_pto_cand. unfold pto_eligible.
    destruct (handshaking s); [|rewrite is_some_pto_cand]; destruct (has_in_flight (sD s)); reflexivity.
Qed.

Lemma needs_b_unarmed : forall m c s,
  loss_time_and_space s = None -> pto_time_and_space m c s = None -> needs_b s = false.
Proof.
  intros m c s EL EP. pose proof (pto_some m c s) as P. rewrite EP in P. revert P.
  unfold needs_b. rewrite EL. destruct (ae_total s =? 0); cbn; [discriminate|auto].
Qed.

Lemma with_ld_id : forall s, with_ld s (ld s) (stale s) = s.
Proof. destruct s; reflexivity. Qed.

Lemma set_ld_cases : forall m c s,
  (closed s = true /\ set_ld_timer m c s = s)
  \/ (closed s = false /\ exists t, set_ld_timer m c s = with_ld s t false
        /\ (blocked s 1 = false -> needs_b s = true -> is_some t = true)).
Proof.
  intros m c s. unfold set_ld_timer. destruct (closed s); [left; auto|right; split; [reflexivity|]].
  destruct (loss_time_and_space s) as [[t i]|] eqn:EL. { exists (Some t). auto. }
  destruct (blocked s 1). { exists None. split; [reflexivity|discriminate]. }
  destruct ((ae_total s =? 0) && peer_completed s) eqn:EA.
  { exists None. split; [reflexivity|]. intros _ Hn. apply andb_prop in EA as (EA & EC).
    unfold needs_b in Hn. rewrite EL, EA, EC in Hn. discriminate Hn. }
  destruct (pto_time_and_space m c s) as [[t i]|] eqn:EP. { exists (Some t). auto. }
  exists None. split; [reflexivity|]. intros _ Hn.
  rewrite (needs_b_unarmed m c s EL EP) in Hn. discriminate Hn.
Qed.

Lemma set_ld_shape : forall m c s, exists t st, set_ld_timer m c s = with_ld s t st.
Proof.
  intros m c s. destruct (set_ld_cases m c s) as [(_ & ->)|(_ & t & -> & _)]; [|eauto].
  exists (ld s), (stale s). symmetry. apply with_ld_id.
Qed.

Lemma set_ld_post : forall m c s, let s' := set_ld_timer m c s in
  closed s' = false -> blocked s' 1 = false -> needs_b s' = true -> is_some (ld s') = true.
Proof.
  intros m c s s'. subst s'. destruct (set_ld_cases m c s) as [(C & ->)|(_ & t & -> & A)].
  - intros C'. congruence.
  - intros _. exact A.
Qed.

Lemma set_ld_Inv : forall m c s, Inv (set_ld_timer m c s).
Proof. intros m c s Hc _ Hb Hn. left. apply set_ld_post; assumption. Qed.

Lemma set_ld_Inv2 : forall m c s, Inv2 s -> Inv2 (set_ld_timer m c s).
Proof. intros m c s H. destruct (set_ld_shape m c s) as (t & st & ->). exact H. Qed.

(** [Inv] reads the state only through these projections *)
Definition view (s : state) :=
  (closed s, in_dgram s, blocked s 1, needs_b s, is_some (ld s), stale s).

Lemma Inv_view : forall s s', view s' = view s -> Inv s -> Inv s'.
Proof.
  unfold view, Inv. intros s s' E H. inversion E as [[E1 E2 E3 E4 E5 E6]].
  rewrite E1, E2, E3, E4, E5, E6. exact H.
Qed.

(** what [needs_b] reads of a space directly; [keys] and [acked] only through [peer_completed] *)
Definition core (x : space) := (ae x, nae x, loss_time x, tlae x).

Lemma needs_b_mono : forall s s',
  core (sI s') = core (sI s) -> core (sH s') = core (sH s) -> core (sD s') = core (sD s) ->
  phase s' = phase s -> (peer_completed s = true -> peer_completed s' = true) ->
  needs_b s' = true -> needs_b s = true.
Proof.
  unfold core. intros s s' EI EH ED EP EC.
  inversion EI as [[I1 I2 I3 I4]]. inversion EH as [[H1 H2 H3 H4]]. inversion ED as [[D1 D2 D3 D4]].
  unfold needs_b, loss_time_and_space, ae_total, pto_eligible, has_in_flight, handshaking.
  rewrite I1, I2, I3, I4, H1, H2, H3, H4, D1, D2, D3, D4, EP.
  destruct (peer_completed s); [rewrite (EC eq_refl); auto|].
  destruct (is_some _); [reflexivity|]. destruct (_ =? 0); [reflexivity|auto].
Qed.

Lemma needs_b_ext : forall s s',
  core (sI s') = core (sI s) -> core (sH s') = core (sH s) -> core (sD s') = core (sD s) ->
  phase s' = phase s -> peer_completed s' = peer_completed s -> needs_b s' = needs_b s.
Proof.
  intros s s' EI EH ED EP EC. apply eq_true_iff_eq.
  split; apply needs_b_mono; congruence.
Qed.

Lemma sp_with_sp : forall s i x, sp (with_sp s i x) i = x.
Proof.
  intros s i x. unfold sp, with_sp. cbn [sI sH sD].
  destruct (i =? 0); [reflexivity|]. destruct (i =? 1); reflexivity.
Qed.

Lemma sp_with_ld : forall s t st i, sp (with_ld s t st) i = sp s i.
Proof. reflexivity. Qed.

Lemma sp_with_pto_count : forall s n i, sp (with_pto_count s n) i = sp s i.
Proof. reflexivity. Qed.

Lemma with_sp_core : forall s i x, core x = core (sp s i) ->
  core (sI (with_sp s i x)) = core (sI s) /\ core (sH (with_sp s i x)) = core (sH s)
  /\ core (sD (with_sp s i x)) = core (sD s).
Proof.
  intros s i x. unfold sp, with_sp. cbn [sI sH sD].
  destruct (i =? 0); [auto|]. destruct (i =? 1); auto.
Qed.

Lemma blocked_mono : forall s s' n,
  validated s' = validated s -> total_sent s' <= total_sent s -> total_recvd s <= total_recvd s' ->
  blocked s n = false -> blocked s' n = false.
Proof.
  unfold blocked. intros s s' n -> A B. destruct (validated s); [reflexivity|]. cbn [negb andb]. lia.
Qed.

(** in the repaired code [stale] marks a connection that has not evaluated its timer yet *)

Definition J (s : state) : Prop := stale s = true -> closed s = false -> ld s = None /\ ae_total s = 0.

Lemma J_set_ld : forall m c s, J (set_ld_timer m c s).
Proof.
  intros m c s. destruct (set_ld_cases m c s) as [(C & ->)|(_ & t & -> & _)].
  - intros _ A. congruence.
  - intros A. discriminate A.
Qed.

Section Pres.
  Variable m : Z.
  Variable fixd : bool.

  Definition usable (s : state) : Prop := in_dgram s <> Some true /\ blocked s 1 = false.

  Lemma usable_in : forall s,
    Inv2 s -> is_some (in_dgram s) = true -> in_dgram s <> Some true -> usable s.
  Proof.
    intros s H2 D N. split; [exact N|].
    destruct (in_dgram s) as [[|]|] eqn:E; [congruence| |discriminate]. apply H2. exact E.
  Qed.

  (** proved together: [Inv] needs [Inv2] inside a datagram; [J] holds of the repaired code only *)
  Definition G (s : state) : Prop := Inv s /\ Inv2 s /\ (fixd = true -> J s).

  Lemma G_set_ld : forall c s, Inv2 s -> G (set_ld_timer m c s).
  Proof.
    intros c s H2. split; [apply set_ld_Inv|]. split; [apply set_ld_Inv2; exact H2|].
    intros _. apply J_set_ld.
  Qed.

  Lemma discard_Inv2 : forall c s i, Inv2 s -> Inv2 (discard m c s i).
  Proof. intros c s i H. unfold discard. apply set_ld_Inv2. exact H. Qed.

  (** the repair re-evaluates the timer here; the unrepaired code is covered by the ghost flag *)
  Lemma G_milestone : forall c s,
    Inv2 s -> G (if fixd then set_ld_timer m c s else with_ld s (ld s) true).
  Proof.
    intros c s H2. destruct fixd eqn:F; [apply G_set_ld; exact H2|]. split; [|split].
    - intros _ _ _ _. right. reflexivity.
    - exact H2.
    - congruence.
  Qed.

  Lemma G_closed : forall s, closed s = true -> Inv2 s -> G s.
  Proof.
    intros s C H2. split; [|split].
    - intros A. congruence.
    - exact H2.
    - intros _ _ A. congruence.
  Qed.

  (** the timer is left alone, the need for it does not grow, the path is usable only if it was *)
  Definition kept (s s' : state) : Prop :=
    (core (sI s') = core (sI s) /\ core (sH s') = core (sH s) /\ core (sD s') = core (sD s)) /\
    phase s' = phase s /\ ld s' = ld s /\ stale s' = stale s.

  Lemma G_frame : forall s s',
    kept s s' -> (peer_completed s = true -> peer_completed s' = true) ->
    (Inv2 s -> Inv2 s') -> (Inv2 s -> usable s' -> usable s) ->
    G s -> G s'.
  Proof.
    intros s s' ((EI & EH & ED) & EP & EL & ES) EC P2 PU (H & H2 & HJ).
    assert (Ecl : closed s' = closed s) by (unfold closed; rewrite EP; reflexivity).
    split; [|split].
    - intros A B C D. destruct (PU H2 (conj B C)) as (B' & C'). rewrite EL, ES.
      apply H; [rewrite <- Ecl; exact A|exact B'|exact C'|].
      exact (needs_b_mono s s' EI EH ED EP EC D).
    - exact (P2 H2).
    - intros F A B. rewrite ES in A. rewrite Ecl in B. destruct (HJ F A B) as (L & T).
      rewrite EL. split; [exact L|].
      rewrite <- T. unfold core in EI, EH, ED. unfold ae_total. congruence.
  Qed.

  Lemma on_ld_timeout_cases : forall c s a b lt,
    (on_ld_timeout m c s a b lt = s /\ needs_b s = false)
    \/ exists s1, on_ld_timeout m c s a b lt = set_ld_timer m c s1 /\ (Inv2 s -> Inv2 s1).
  Proof.
    intros c s a b lt. unfold on_ld_timeout.
    destruct (loss_time_and_space s) as [[t i]|] eqn:EL.
    { right. eexists. split; [reflexivity|exact (fun H => H)]. }
    destruct (pto_time_and_space m c s) as [[t i]|] eqn:EP.
    { right. eexists. split; [reflexivity|exact (fun H => H)]. }
    left. split; [reflexivity|exact (needs_b_unarmed m c s EL EP)].
  Qed.

  Lemma keys_peer_completed : forall s i, (i = 1 /\ keys (sD s) = false) \/ i = 2 ->
    let x := sp s i in
    peer_completed s = true ->
    peer_completed (with_sp s i (mkSpace (ae x) (nae x) (loss_time x) (tlae x) (probes x) true (acked x))) = true.
  Proof.
    intros s i Hi x. subst x. unfold peer_completed, closed, with_sp, sp.
    destruct Hi as [(-> & Hk)| ->]; cbn [sH sD client phase]; cbv [Z.eqb Pos.eqb]; cbn [keys acked].
    - rewrite Hk. exact (fun X => X).
    - destruct (negb (client s) || (2 <=? phase s) || acked (sH s) || acked (sD s)); [reflexivity|].
      destruct (keys (sD s)); [exact (fun X => X)|discriminate].
  Qed.

  (** an operation whose guard fails is ignored *)
  Ltac guarded HG Gd :=
    match goal with |- G (if ?g then _ else _) => destruct g eqn:Gd; [|exact HG] end.

  Lemma G_step : forall s o, G s -> G (step m fixd s o).
  Proof.
    intros s o HG. pose proof HG as (H & H2 & HJ). destruct o; cbn [step].
    - (* OSent *)
      guarded HG Gd. unfold do_sent.
      set (s1 := if client s && (i =? 1) && keys (sI s) then discard m c s 0 else s).
      assert (G1 : G s1).
      { subst s1. destruct (client s && (i =? 1) && keys (sI s)); [apply G_set_ld; exact H2|exact HG]. }
      pose proof (proj1 (proj2 G1)) as H21.
      destruct ack_eliciting; [apply G_set_ld; exact H21|].
      destruct padded; [apply G_set_ld; exact H21|exact G1].
    - (* OTxDone: more sent can only block the path *)
      guarded HG Gd. apply andb_prop in Gd as (Gb & Gn).
      apply (G_frame s); [repeat split|auto| | |exact HG].
      + intros _ E. change (in_dgram s = Some false) in E. rewrite E in Gn. discriminate Gn.
      + intros _ (B & C). split; [exact B|]. revert C.
        apply blocked_mono; cbn [with_path validated total_sent total_recvd]; [reflexivity|lia..].
    - (* OGate *)
      guarded HG Gd. unfold do_gate.
      match goal with |- G (with_sp ?s0 i ?x) => pose proof (with_sp_core s0 i x eq_refl) as K end.
      apply (G_frame s); [split; [exact K|repeat split]| |exact (fun X => X)|exact (fun _ X => X)|exact HG].
      unfold peer_completed, closed, with_sp, with_pacing, sp. cbn [sH sD keys acked client phase].
      destruct (i =? 0); [auto|]. destruct (i =? 1); auto.
    - (* ODgramBegin *)
      destruct (is_some (in_dgram s)) eqn:Gd; [exact HG|].
      apply (G_frame s); [repeat split|auto| | |exact HG].
      + intros _ E. injection E as E. exact E.
      + intros _ (_ & C). split; [|exact C]. destruct (in_dgram s); discriminate.
    - (* ORecvd: more received can only unblock the path *)
      guarded HG Gd. apply andb_prop in Gd as (Gb & Gn).
      apply (G_frame s); [repeat split|auto| | |exact HG].
      + intros A E. specialize (A E). revert A.
        apply blocked_mono; cbn [with_path validated total_sent total_recvd]; [reflexivity|lia..].
      + intros A (B & _). apply usable_in; assumption.
    - (* ODgramEnd *)
      destruct (in_dgram s) as [[|]|] eqn:Gd; [apply G_set_ld; discriminate| |exact HG].
      apply (G_frame s); [repeat split|auto|discriminate| |exact HG].
      intros A _. apply usable_in; [exact A|rewrite Gd; reflexivity|rewrite Gd; discriminate].
    - (* OAck *)
      guarded HG Gd. unfold do_ack. apply G_set_ld.
      match goal with |- Inv2 (if ?g then _ else _) => destruct g end; exact H2.
    - (* OKeys *)
      guarded HG Gd.
      assert (Hi : (i = 1 /\ keys (sD s) = false) \/ i = 2) by (destruct (keys (sD s)); lia).
      match goal with |- G (with_conn (with_sp s i ?x) _ _ _) => pose proof (with_sp_core s i x eq_refl) as K end.
      apply (G_frame s); [split; [exact K|repeat split]|exact (keys_peer_completed s i Hi)
                         |exact (fun X => X)|exact (fun _ X => X)|exact HG].
    - (* OZeroRtt *)
      guarded HG Gd.
      apply (G_frame s); [repeat split|auto|exact (fun X => X)|exact (fun _ X => X)|exact HG].
    - (* ODiscard *)
      guarded HG Gd. apply G_set_ld. exact H2.
    - (* ORetry *)
      guarded HG Gd. unfold do_retry. apply G_milestone. exact (discard_Inv2 c s 0 H2).
    - (* OValidated *)
      guarded HG Gd.
      apply (G_frame s); [repeat split|auto|intros _ _; reflexivity| |exact HG].
      intros A (B & _). apply usable_in; assumption.
    - (* OEstablished *)
      guarded HG Gd. unfold do_established.
      set (s1 := if client s then _ else _).
      assert (H21 : Inv2 s1).
      { subst s1. destruct (client s); [|apply discard_Inv2; exact H2].
        destruct (rejected && zero_rtt s); exact H2. }
      apply G_milestone. exact H21.
    - (* OClose *)
      apply G_closed; [reflexivity|exact H2].
    - (* OTimeout *)
      guarded HG Gd. unfold do_timeout.
      set (s1 := if expired (ld s) (now c) then _ else s).
      assert (G1 : G s1).
      { subst s1. destruct (expired (ld s) (now c)); [|exact HG].
        destruct (on_ld_timeout_cases c (with_ld s None (stale s)) lost_ae lost_nae lt)
          as [(-> & N)|(s1 & -> & P)]; [|apply G_set_ld, P, H2].
        (* "PTO expired while unset": the timer is gone, and was not needed *)
        split; [|split; [exact H2|]].
        - intros _ _ _ D. rewrite N in D. discriminate D.
        - intros F A B. destruct (HJ F A B) as (_ & T). split; [reflexivity|exact T]. }
      destruct (expired (pacing s1) (now c)); [|exact G1].
      apply (G_frame s1); [repeat split|auto|exact (fun X => X)|exact (fun _ X => X)|exact G1].
  Qed.

  Lemma G_run : forall ops s, G s -> G (run m fixd s ops).
  Proof. intros ops s. apply (fold_left_pres _ G). intros s' o. apply G_step. Qed.

  Lemma G_init : forall cl v, G (init cl v).
  Proof.
    intros cl v. split; [|split].
    - intros _ _ _ _. right. reflexivity.
    - discriminate.
    - intros _ _ _. split; reflexivity.
  Qed.
End Pres.

Lemma wf_space_eligible : forall x, wf_space x -> 0 < ae x -> has_in_flight x && is_some (tlae x) = true.
Proof. intros x (_ & B & _ & T) P. rewrite (T P). unfold has_in_flight. lia. Qed.

Lemma needs_needs_b : forall s, wf s -> needs s -> needs_b s = true.
Proof.
  intros s (WI & WH & WD & _) N. unfold needs_b, loss_time_and_space. rewrite !is_some_pick_min.
  destruct (loss_time (sI s)) eqn:LI; [reflexivity|]. destruct (loss_time (sH s)) eqn:LH; [reflexivity|].
  destruct (loss_time (sD s)) eqn:LD; [reflexivity|]. cbn [is_some orb].
  assert (Z3 : 0 <= ae (sI s) /\ 0 <= ae (sH s) /\ 0 <= ae (sD s)) by (repeat split; [apply WI|apply WH|apply WD]).
  unfold pto_eligible.
  destruct N as [N|[N|[N|[N|[N|[(N & P)|(N & P)]]]]]]; try congruence;
    [replace (ae_total s =? 0) with false by (unfold ae_total; lia)..|rewrite N, P; reflexivity].
  - rewrite (wf_space_eligible _ WI N). reflexivity.
  - rewrite (wf_space_eligible _ WH N). apply orb_true_iff. left. apply orb_true_r.
  - destruct (andb_prop _ _ (wf_space_eligible _ WD N)) as (-> & ->).
    replace (handshaking s) with false by (unfold handshaking; lia). apply orb_true_r.
Qed.

Lemma sendable_keys : forall s i, keys (sp s i) = true -> sendable s i = true.
Proof. intros s i K. unfold sendable. rewrite K. reflexivity. Qed.

(** the deadline counts from now for the anti-deadlock probe, else from the last ack-eliciting
    send of the chosen space *)
Lemma pto_value : forall m c s t i,
  pto_time_and_space m c s = Some (t, i) ->
  let b := 2 ^ Z.min (pto_count s) m in
  (ae_total s = 0 /\ t = now c + base c * b /\ i = (if highest s =? 1 then 1 else 0))
  \/ (ae_total s <> 0 /\ (i = 0 \/ i = 1 \/ (i = 2 /\ phase s <> 0)) /\ has_in_flight (sp s i) = true /\
      exists t0, tlae (sp s i) = Some t0 /\
                 t = t0 + (base c * b + (if i =? 2 then mad c * b else 0))).
Proof.
  intros m c s t i E b. destruct (ae_total s =? 0) eqn:Z0.
  - left. unfold pto_time_and_space in E. rewrite Z0 in E. inversion E. split; [lia|]. split; reflexivity.
  - right. split; [lia|]. rewrite (pto_time_and_space_eq m c s Z0) in E. subst b. unfold backoff in E.
    apply pick_min3_some in E as [(-> & E)|[(-> & E)|(-> & E)]];
      [| |unfold handshaking in E; destruct (phase s =? 0) eqn:P; [discriminate|]];
      apply pto_cand_some in E as (F & t0 & T & ->);
      (split; [lia|]); (split; [exact F|]); exists t0; (split; [exact T|]); cbv [Z.eqb Pos.eqb]; lia.
Qed.

Theorem pto_backoff : forall m c s t i,
  0 <= m -> 0 <= pto_count s -> 0 < base c -> 0 <= mad c ->
  pto_time_and_space m c s = Some (t, i) ->
  let d := (base c + (if i =? 2 then mad c else 0)) * 2 ^ Z.min (pto_count s) m in
  0 < d <= (base c + mad c) * 2 ^ m /\
  ((ae_total s = 0 /\ t = now c + d) \/
   (ae_total s <> 0 /\ exists t0, tlae (sp s i) = Some t0 /\ t = t0 + d)).
Proof.
  intros m c s t i Hm Hp Hb Hd E d.
  assert (P : 0 < 2 ^ Z.min (pto_count s) m) by (apply Z.pow_pos_nonneg; lia).
  assert (Q : 2 ^ Z.min (pto_count s) m <= 2 ^ m) by (apply Z.pow_le_mono_r; lia).
  destruct (pto_value m c s t i E) as [(A & B & C)|(A & B & F & t0 & T & V)].
  - subst d. replace (i =? 2) with false by (destruct (highest s =? 1); lia).
    split; [nia|]. left. split; [exact A|]. rewrite B. lia.
  - subst d. split.
    + destruct (i =? 2); nia.
    + right. split; [exact A|]. exists t0. split; [exact T|]. rewrite V. destruct (i =? 2); lia.
Qed.

(** firing the PTO: the chosen space gets probes; with [wf] it has keys, except for the anti-deadlock
    probe of a client that already has 1-RTT keys and has dropped its Initial keys *)
Theorem pto_fire_probes : forall m c s t i,
  wf s -> pto_time_and_space m c s = Some (t, i) -> loss_time_and_space s = None ->
  let s' := on_ld_timeout m c s 0 0 None in
  probes (sp s' i) = probes (sp s i) + (if ae_total s =? 0 then 1 else 2) /\
  0 < probes (sp s' i) /\
  pto_count s' = pto_count s + 1 /\
  (sendable s' i = true \/ (ae_total s = 0 /\ highest s = 2 /\ keys (sI s) = false)).
Proof.
  intros m c s t i W E L s'. subst s'. unfold on_ld_timeout. rewrite L, E. cbv zeta.
  match goal with |- context [set_ld_timer m c ?s1] => destruct (set_ld_shape m c s1) as (t1 & st & ->) end.
  unfold sendable. rewrite sp_with_ld, sp_with_pto_count, sp_with_sp.
  cbn [probes keys with_ld with_pto_count with_sp zero_rtt client pto_count].
  set (x := sp s i).
  destruct W as ((_ & _ & PI & _) & (_ & _ & PH & _) & (_ & _ & PD & _) & KI & KH & KD & HR & H0 & H1).
  assert (Px : 0 <= probes x).
  { subst x. unfold sp. destruct (i =? 0); [exact PI|]. destruct (i =? 1); assumption. }
  split; [reflexivity|]. split; [destruct (ae_total s =? 0); lia|]. split; [reflexivity|].
  subst x. change (sendable s i = true \/ ae_total s = 0 /\ highest s = 2 /\ keys (sI s) = false).
  destruct (pto_value m c s t i E) as [(A & _ & ->)|(A & B & F & _)].
  - (* anti-deadlock probe: Initial, or Handshake once it is the highest space *)
    destruct HR as [R|[R|R]]; rewrite R.
    + left. apply sendable_keys. exact (proj1 (H0 R)).
    + left. apply sendable_keys. exact (proj1 (H1 R)).
    + destruct (keys (sI s)) eqn:K; [left; apply sendable_keys; exact K|right; auto].
  - left. destruct B as [-> | [-> | (-> & _)]].
    + apply sendable_keys. exact (KI F).
    + apply sendable_keys. exact (KH F).
    + exact (KD F).
Qed.
