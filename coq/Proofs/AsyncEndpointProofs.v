(** C18 — endpoint half: invariant of Model/AsyncEndpoint.v and its consequences. *)
From QV Require Import Lib.Tac Model.AsyncEndpoint Proofs.RunInduction.
From Coq Require Import Arith.

Definition eregistered (s : est) (t : nat) (o : eop) : Prop :=
  match o with EAccept => e_winc s t = true | EWaitIdle => e_widle s t = true end.

Record EInv (s : est) : Prop := {
  ei_wake : forall t o, e_pend s t = Some o ->
      e_run s t = true \/ (eregistered s t o /\ econd s o = false);
  ei_winc : forall t, e_winc s t = true -> e_pend s t = Some EAccept;
  ei_widle : forall t, e_widle s t = true -> e_pend s t = Some EWaitIdle;
  ei_drv : e_alive s = true -> e_drun s = true \/ e_dwaker s = true;
  (** the driver notices that it may exit *)
  ei_exit : e_alive s = true -> e_refs s = 0%Z -> e_conns s = 0 -> e_drun s = true;
  ei_lost : e_alive s = false -> e_lost s = true;
  ei_refs : e_alive s = true -> (0 <= e_refs s)%Z
}.

Lemma EInv_init : EInv einit.
Proof. constructor; cbn; intros; try discriminate; auto; lia. Qed.

(** what holds in the middle of a driver poll; [l], [c]: the unchanged [e_lost], [e_close] *)
Record EMid (l c : bool) (s : est) : Prop := {
  em_lost : e_lost s = l; em_close : e_close s = c;
  em_acc : forall t, e_pend s t = Some EAccept ->
      e_run s t = true \/ (e_winc s t = true /\ l = false /\ c = false);
  em_idle : forall t, e_pend s t = Some EWaitIdle ->
      e_run s t = true \/ (e_widle s t = true /\ Nat.eqb (e_conns s) 0 = false);
  em_winc : forall t, e_winc s t = true -> e_pend s t = Some EAccept;
  em_widle : forall t, e_widle s t = true -> e_pend s t = Some EWaitIdle;
  em_alive : e_alive s = true; em_dw : e_dwaker s = true; em_dr : e_drun s = false;
  em_refs : (0 <= e_refs s)%Z
}.

Lemma EMid_event : forall l c s e, EMid l c s -> EMid l c (edrv_event s e).
Proof.
  intros l c s e H. destruct H as [Ml Mc Ma Mi Mwi Mwd Mal Mdw Mdr Mrf]. destruct e as [id|]; unfold edrv_event.
  - destruct (e_close s) eqn:Ec; constructor; cbn; auto; congruence.
  - destruct (e_conns s) as [|n] eqn:En; [constructor; auto; intros t Ht; rewrite En; auto|].
    destruct (Nat.eqb n 0) eqn:E0.
    + constructor; cbn; auto.
      * intros t Ht. destruct (Ma t Ht) as [Hr | Hr]; [left; rewrite Hr; auto | right; auto].
      * intros t Ht. destruct (Mi t Ht) as [Hr | [Hr _]]; left; rewrite Hr; auto using orb_true_r.
      * intros; discriminate.
    + constructor; cbn; auto.
      intros t Ht. destruct (Mi t Ht) as [Hr | [Hr _]]; auto.
Qed.

Lemma EMid_fold : forall evs l c s, EMid l c s -> EMid l c (fold_left edrv_event evs s).
Proof. intros evs l c. apply fold_left_pres. intros s e. apply EMid_event. Qed.

Lemma EInv_drv : forall s evs, EInv s -> EInv (edrv_poll s evs).
Proof.
  intros s evs H. unfold edrv_poll. destruct (e_alive s) eqn:Ea; cbn [negb]; auto.
  set (s1 := emk _ _ _ _ _ _ _ _ _ true true false).
  assert (M : EMid (e_lost s) (e_close s) s1).
  { destruct H as [W Wi Wd D X L R]. constructor; cbn; auto.
    - intros t Ht. destruct (W t _ Ht) as [Hr | [Hg Hc]]; auto. right. cbn in Hg, Hc.
      apply orb_false_iff in Hc as [Hc Hc2]. apply orb_false_iff in Hc as [Hc Hc1]. auto.
    - intros t Ht. destruct (W t _ Ht) as [Hr | [Hg Hc]]; auto. }
  apply (EMid_fold evs) in M. set (s2 := fold_left edrv_event evs s1) in *.
  assert (M3 : EMid (e_lost s) (e_close s) (match e_incoming s2 with [] => s2 | _ => notify_inc s2 end)
               /\ forall t, e_pend s2 t = Some EAccept -> e_incoming s2 <> [] ->
                   e_run (match e_incoming s2 with [] => s2 | _ => notify_inc s2 end) t = true).
  { destruct M as [Ml Mc Ma Mi Mwi Mwd Mal Mdw Mdr Mrf]. destruct (e_incoming s2) eqn:Ei.
    - split; [constructor; auto | congruence].
    - split.
      + constructor; cbn; auto.
        * intros t Ht. destruct (Ma t Ht) as [Hr | [Hr _]]; left; rewrite Hr; auto using orb_true_r.
        * intros t Ht. destruct (Mi t Ht) as [Hr | Hr]; [left; rewrite Hr; auto | right; auto].
        * intros; discriminate.
      + intros t Ht _. cbn. destruct (Ma t Ht) as [Hr | [Hr _]]; rewrite Hr; auto using orb_true_r. }
  destruct M3 as [M3 Hacc]. set (s3 := match e_incoming s2 with [] => s2 | _ => notify_inc s2 end) in *.
  assert (Hinc : e_incoming s3 = e_incoming s2) by (subst s3; destruct (e_incoming s2) eqn:E; cbn; auto).
  destruct M3 as [Ml Mc Ma Mi Mwi Mwd Mal Mdw Mdr Mrf].
  destruct (Z.eqb (e_refs s3) 0 && Nat.eqb (e_conns s3) 0) eqn:Ex.
  - constructor; cbn; try discriminate; auto.
    + intros t o Ht. destruct o.
      * destruct (Ma t Ht) as [Hr | [Hr _]]; left; rewrite Hr; auto using orb_true_r.
      * destruct (Mi t Ht) as [Hr | [_ Hr]]; [left; rewrite Hr; auto|].
        apply andb_true_iff in Ex as [_ Ex]. congruence.
  - constructor; auto.
    + intros t o Ht. destruct o.
      * destruct (Ma t Ht) as [Hr | [Hr [Hl Hc]]]; auto.
        destruct (e_incoming s2) eqn:Ei.
        -- right. split; [exact Hr|]. cbn. rewrite Hinc, Ml, Mc, Hl, Hc. reflexivity.
        -- left. apply Hacc; [|congruence]. subst s3. cbn in Ht. exact Ht.
      * destruct (Mi t Ht) as [Hr | [Hr Hc]]; auto.
    + intros _ Hr Hc. rewrite Hr, Hc in Ex. discriminate.
    + rewrite Mal. discriminate.
Qed.

(** [EInv] after [t] polled or dropped, [W] the wake clause before; leaves [Hc] and [E : t' =? t] *)
Ltac poll_fin W t :=
  constructor; cbn;
  try solve [auto];
  try solve [intros t' Ht'; unfold eupd in *; destruct (Nat.eqb t' t); first [discriminate | solve [auto]]];
  try (intros t' o' Ht'; unfold eupd in *; destruct (Nat.eqb t' t) eqn:E;
      [ try discriminate; try (inversion Ht'; subst; right; cbn; rewrite ?E; auto)
      | destruct (W t' o' Ht') as [Hr | [Hg Hc]]; auto; right; destruct o'; cbn in *; rewrite ?E; auto ]).

Lemma EInv_step : forall s l, EInv s -> EInv (estep' s l).
Proof.
  intros s l H. destruct l as [t o|t|evs| | | |]; unfold estep', estep; cbn [fst].
  - destruct H as [W Wi Wd D X L R]. unfold epoll, erelease; cbn.
    destruct o.
    + destruct (e_lost s) eqn:El; [poll_fin W t; rewrite El in Hc; discriminate|].
      destruct (e_incoming s) as [|id rest] eqn:Ei.
      * destruct (e_close s) eqn:Ec; poll_fin W t.
        all: try (rewrite El, Ei, Ec; auto). all: try (rewrite El, Ei, Ec in Hc; cbn in Hc; discriminate).
      * poll_fin W t. all: try (rewrite El, Ei in Hc; cbn in Hc; discriminate).
        -- intros Ha Hr. specialize (R Ha). lia.
        -- intros Ha. specialize (R Ha). lia.
    + destruct (Nat.eqb (e_conns s) 0) eqn:Ec; poll_fin W t.
      all: try (rewrite Ec; auto).
  - destruct H as [W Wi Wd D X L R]. unfold erelease. poll_fin W t.
  - apply EInv_drv; exact H.
  - destruct H as [W Wi Wd D X L R]. constructor; cbn; auto.
    + intros t' o' Ht'. destruct (W t' o' Ht') as [Hr | [Hg Hc]]; [left; rewrite Hr; auto|].
      destruct o'; cbn in *; [left; rewrite Hg; auto using orb_true_r | right; auto].
    + intros; discriminate.
  - destruct (e_lost s || e_close s || negb (Z.ltb 0 (e_refs s))) eqn:Eg; auto.
    apply orb_false_iff in Eg as [Eg Er]. apply negb_false_iff in Er. apply Z.ltb_lt in Er.
    destruct H as [W Wi Wd D X L R]. constructor; cbn; auto.
    + intros t' o' Ht'. destruct (W t' o' Ht') as [Hr | [Hg Hc]]; auto.
      right. destruct o'; cbn in *; auto.
    + intros _ Hr. lia.
  - destruct (Z.ltb 0 (e_refs s)) eqn:Er; auto. apply Z.ltb_lt in Er.
    destruct H as [W Wi Wd D X L R]. constructor; cbn; auto; intros; lia.
  - destruct (Z.ltb 0 (e_refs s)) eqn:Er; auto. apply Z.ltb_lt in Er.
    destruct (Z.ltb 1 (e_refs s)) eqn:E1.
    + apply Z.ltb_lt in E1. destruct H as [W Wi Wd D X L R]. constructor; cbn; auto; intros; lia.
    + apply Z.ltb_ge in E1. unfold wake_edriver; cbn. destruct H as [W Wi Wd D X L R].
      destruct (e_dwaker s) eqn:Ew; constructor; cbn; auto; try (intros; lia).
      intros Ha _ _. destruct (D Ha) as [Hd | Hd]; congruence.
Qed.

Theorem EInv_run : forall ls, EInv (erun ls).
Proof. intros ls. exact (fold_left_pres estep' EInv EInv_step ls einit EInv_init). Qed.

Theorem endpoint_no_lost_wakeup : forall ls t o,
  e_pend (erun ls) t = Some o -> econd (erun ls) o = true -> e_run (erun ls) t = true.
Proof.
  intros ls t o Hp Hc. destruct (ei_wake _ (EInv_run ls) t o Hp) as [Hr | [_ Hf]]; auto. congruence.
Qed.

Theorem endpoint_driver_exit_not_missed : forall ls,
  e_alive (erun ls) = true -> e_refs (erun ls) = 0%Z -> e_conns (erun ls) = 0 -> e_drun (erun ls) = true.
Proof. intros ls. apply (ei_exit _ (EInv_run ls)). Qed.

Theorem endpoint_driver_exits : forall s,
  e_alive s = true -> e_refs s = 0%Z -> e_conns s = 0 ->
  e_alive (edrv_poll s []) = false /\ e_lost (edrv_poll s []) = true.
Proof.
  intros s Ha Hr Hc. unfold edrv_poll. rewrite Ha. cbn.
  destruct (e_incoming s); cbn; rewrite Hr, Hc; cbn; auto.
Qed.

(** close wakes every pending accept; afterwards accept never pends *)
Theorem endpoint_close_wakes_accept : forall ls t,
  e_pend (estep' (erun ls) LClose) t = Some EAccept -> e_run (estep' (erun ls) LClose) t = true.
Proof.
  intros ls t Hp. pose proof (EInv_step _ LClose (EInv_run ls)) as H.
  destruct (ei_wake _ H t _ Hp) as [Hr | [_ Hc]]; auto.
  unfold estep', estep in Hc. cbn in Hc. rewrite orb_true_r in Hc. discriminate.
Qed.

Theorem endpoint_closed_accept_never_pends : forall s t,
  e_close s = true -> snd (epoll s t EAccept) <> EPending.
Proof.
  intros s t Hc. unfold epoll, erelease; cbn. destruct (e_lost s); [discriminate|].
  destruct (e_incoming s); [rewrite Hc|]; discriminate.
Qed.

(** cancel safety: dropping a pending accept / wait_idle future changes nothing but the task's
    own registration; no connection attempt is lost *)
Theorem endpoint_drop_changes_nothing : forall s t,
  let s' := estep' s (LDrop t) in
  e_incoming s' = e_incoming s /\ e_close s' = e_close s /\ e_conns s' = e_conns s /\ e_refs s' = e_refs s
  /\ e_winc s' t = false /\ e_widle s' t = false.
Proof.
  intros s t. unfold estep', estep, erelease; cbn. unfold eupd. rewrite Nat.eqb_refl. auto 10.
Qed.

Example endpoint_teardown :
  let s := erun [LConnect; LPoll 1 EWaitIdle; LDrv []; LHandleDrop; LDrv [VDrained]] in
  e_alive s = false /\ e_lost s = true /\ e_run s 1 = true /\ e_refs s = (-1)%Z.
Proof. vm_compute. auto. Qed.

Example endpoint_accept_wakeup :
  let s := erun [LPoll 1 EAccept; LPoll 2 EAccept; LDrop 1; LDrv [VIncoming 7]] in
  e_run s 2 = true /\ e_run s 1 = false /\ e_winc s 1 = false /\
  snd (estep s (LPoll 3 EAccept)) = EReady (EIncoming 7).
Proof. vm_compute. auto. Qed.
