(** The routing invariant, the frame of a connection, and the primitive updates that keep both. *)
From QV Require Import Lib.Tac Lib.Corr Model.Routing Proofs.RoutingMap.
Open Scope Z_scope.

Notation live s ch m := (lookup [ch] (s_conns s) = Some m).

Definition sound (conns : amap meta) (M : amap Z) (P : key -> meta -> Prop) : Prop :=
  forall k ch, lookup k M = Some ch -> exists m, lookup [ch] conns = Some m /\ P k m.
Definition soundr (conns : amap meta) (M : amap route) (P : key -> meta -> Prop) : Prop :=
  forall k ch, lookup k M = Some (RConn ch) -> exists m, lookup [ch] conns = Some m /\ P k m.

Definition P_ids (c : key) (m : meta) : Prop := exists k, lookup k (m_loc m) = Some c.
Definition P_init (x : key) (m : meta) : Prop := m_server m = true /\ m_init m = x.
Definition P_in (k : key) (m : meta) : Prop := m_server m = true /\ k = [m_remote m; m_local m].
Definition P_out (k : key) (m : meta) : Prop := m_server m = false /\ k = [m_remote m].
Definition P_tok (k : key) (m : meta) : Prop := exists r t, m_tok m = Some (r, t) /\ k = [r; t].

(** Per-connection consistency of [loc_cids] with [connection_ids]. *)
Record conn_ok (ids : amap Z) (ch : Z) (m : meta) : Prop := mkOk {
  ok_complete : forall k c, lookup k (m_loc m) = Some c -> c <> [] -> lookup c ids = Some ch;
  ok_inj : forall k1 k2 c, lookup k1 (m_loc m) = Some c -> lookup k2 (m_loc m) = Some c ->
                           c <> [] -> k1 = k2;
  ok_seq : forall q, m_issued m <= q -> lookup [q] (m_loc m) = None;
  ok_nodup : nodupk (m_loc m);
}.

Record Inv (s : st) : Prop := mkInv {
  I_range : forall ch m, live s ch m -> 0 <= ch < s_hwm s /\ ~ In ch (s_free s);
  I_free : forall k, In k (s_free s) -> 0 <= k < s_hwm s;
  I_fnodup : NoDup (s_free s);
  I_hwm : 0 <= s_hwm s;
  I_inc : forall ch m, live s ch m -> m_inc m < s_epoch s;
  I_ok : forall ch m, live s ch m -> conn_ok (s_ids s) ch m;
  I_ids : sound (s_conns s) (s_ids s) P_ids;
  I_init : soundr (s_conns s) (s_init s) P_init;
  I_initnil : lookup [] (s_init s) = None;
  I_in : sound (s_conns s) (s_in s) P_in;
  I_out : sound (s_conns s) (s_out s) P_out;
  I_tok : sound (s_conns s) (s_tok s) P_tok;
}.

(* projections of explicit record updates, on the goal *)
Ltac rt_red :=
  cbn [set_init set_ids set_in set_out set_tok set_conns set_incs update_conn
       s_len s_pref s_init s_ids s_in s_out s_tok s_conns s_free s_hwm s_incs s_nincs s_buf s_epoch
       m_inc m_init m_issued m_loc m_remote m_local m_server m_tok].

Definition submap {V} (M' M : amap V) : Prop := forall k v, lookup k M' = Some v -> lookup k M = Some v.

Lemma submap_trans {V} (A B C : amap V) : submap A B -> submap B C -> submap A C.
Proof. intros H1 H2 k v H. auto. Qed.

Lemma live_upd (conns : amap meta) ch m' ch0 m0 :
  lookup [ch0] (insert [ch] m' conns) = Some m0 <->
  (ch0 = ch /\ m0 = m') \/ (ch0 <> ch /\ lookup [ch0] conns = Some m0).
Proof.
  rewrite lookup_insert_Some.
  split; (intros [[E ->]|[N H]]; [left; split; [congruence | reflexivity] | right; split; [congruence | exact H]]).
Qed.

Inductive kind := Kids | Kinit | Kin | Kout | Ktok.

(** The five soundness clauses of [Inv] as one: an [entry] is matched by a [claim] ([Inv_routes]). *)
Definition entry (kd : kind) (s : st) (k : key) (ch : Z) : Prop :=
  match kd with
  | Kids => lookup k (s_ids s) = Some ch
  | Kinit => lookup k (s_init s) = Some (RConn ch)
  | Kin => lookup k (s_in s) = Some ch
  | Kout => lookup k (s_out s) = Some ch
  | Ktok => lookup k (s_tok s) = Some ch
  end.

Definition claim (kd : kind) : key -> meta -> Prop :=
  match kd with Kids => P_ids | Kinit => P_init | Kin => P_in | Kout => P_out | Ktok => P_tok end.

Lemma Inv_routes s kd k ch : Inv s -> entry kd s k ch -> exists m, live s ch m /\ claim kd k m.
Proof. intros I. destruct kd; apply I. Qed.

Lemma ok_ids_change ids ids' ch m :
  conn_ok ids ch m -> (forall c, c <> [] -> lookup c ids = Some ch -> lookup c ids' = Some ch) ->
  conn_ok ids' ch m.
Proof. intros [A B C D] H. constructor; eauto. Qed.

Lemma Inv_claim s kd k ch m : Inv s -> live s ch m -> entry kd s k ch -> claim kd k m.
Proof. intros I L E. destruct (Inv_routes s kd k ch I E) as [m0 [L0 C]]. congruence. Qed.

Record slab_ok (conns : amap meta) (free : list Z) (hwm : Z) : Prop := {
  sl_range : forall ch m, lookup [ch] conns = Some m -> 0 <= ch < hwm /\ ~ In ch free;
  sl_free : forall k, In k free -> 0 <= k < hwm;
  sl_nodup : NoDup free;
  sl_hwm : 0 <= hwm;
}.

Lemma Inv_slab s : Inv s -> slab_ok (s_conns s) (s_free s) (s_hwm s).
Proof. intros []. constructor; assumption. Qed.

Lemma Inv_intro s :
  slab_ok (s_conns s) (s_free s) (s_hwm s) ->
  (forall ch m, live s ch m -> m_inc m < s_epoch s /\ conn_ok (s_ids s) ch m) ->
  lookup [] (s_init s) = None ->
  (forall kd k ch, entry kd s k ch -> exists m, live s ch m /\ claim kd k m) ->
  Inv s.
Proof.
  intros [] C N R. constructor; try assumption.
  - intros ch m L. apply (C ch m L).
  - intros ch m L. apply (C ch m L).
  - exact (R Kids).
  - exact (R Kinit).
  - exact (R Kin).
  - exact (R Kout).
  - exact (R Ktok).
Qed.

Lemma Inv_init len pref : Inv (init_st len pref).
Proof.
  apply Inv_intro; cbn [init_st s_conns s_free s_hwm s_init lookup].
  - constructor; [discriminate | contradiction | constructor | lia].
  - discriminate.
  - reflexivity.
  - intros [] k ch; discriminate.
Qed.

Lemma vacant_not_live s : Inv s -> lookup [vacant_key s] (s_conns s) = None.
Proof.
  intros I. destruct (lookup [vacant_key s] (s_conns s)) as [m|] eqn:L; [|reflexivity].
  exfalso. destruct (I_range _ I _ _ L) as [R NF]. unfold vacant_key in *.
  destruct (s_free s) as [|k f]; [lia | apply NF; left; reflexivity].
Qed.

Lemma slab_ok_insert s m :
  slab_ok (s_conns s) (s_free s) (s_hwm s) ->
  let s' := slab_insert s m in slab_ok (s_conns s') (s_free s') (s_hwm s').
Proof.
  intros [R F D H]. unfold slab_insert, vacant_key. destruct (s_free s) as [|k f]; constructor; rt_red.
  - intros ch0 m0 L0. apply live_upd in L0. destruct L0 as [[-> _]|[_ L0]]; [|apply R in L0]; simpl; lia.
  - contradiction.
  - constructor.
  - lia.
  - apply NoDup_cons_iff in D. pose proof (F k (or_introl eq_refl)).
    intros ch0 m0 L0. apply live_upd in L0. destruct L0 as [[-> _]|[_ L0]]; [tauto|].
    apply R in L0. simpl in L0. tauto.
  - intros k0 Hin. apply F. right. exact Hin.
  - apply NoDup_cons_iff in D. apply D.
  - exact H.
Qed.

Lemma slab_ok_remove conns free hwm ch m :
  slab_ok conns free hwm -> lookup [ch] conns = Some m -> slab_ok (remove [ch] conns) (ch :: free) hwm.
Proof.
  intros [R F D H] L. destruct (R ch m L) as [Rc Nc]. constructor.
  - intros ch0 m0 L0. apply lookup_remove_Some in L0. destruct L0 as [N L0]. apply R in L0.
    split; [apply L0 | intros [->|Hin]; [exact (N eq_refl) | exact (proj2 L0 Hin)]].
  - intros k [<-|Hin]; auto.
  - constructor; assumption.
  - exact H.
Qed.

(** [fr_keep] leaves out the empty CID: [connect]'s cleanup may drop it, and [get] never asks. *)
Record frame (b : Z) (s s' : st) : Prop := {
  fr_conn : lookup [b] (s_conns s') = lookup [b] (s_conns s);
  fr_sub : forall kd k, entry kd s' k b -> entry kd s k b;
  fr_keep : forall k, k <> [] -> lookup k (s_ids s) = Some b -> lookup k (s_ids s') = Some b;
}.

Lemma frame_refl b s : frame b s s.
Proof. constructor; auto. Qed.

Lemma frame_trans b s1 s2 s3 : frame b s1 s2 -> frame b s2 s3 -> frame b s1 s3.
Proof. intros [A1 B1 C1] [A2 B2 C2]. constructor; [congruence | auto | auto]. Qed.

Definition confined (a : option Z) (s s' : st) : Prop :=
  Inv s -> Inv s' /\ forall b, a <> Some b -> frame b s s'.

Lemma confined_refl a s : confined a s s.
Proof. intros I. split; [exact I | intros; apply frame_refl]. Qed.

Lemma confined_trans a s1 s2 s3 : confined a s1 s2 -> confined a s2 s3 -> confined a s1 s3.
Proof.
  intros C1 C2 I1. destruct (C1 I1) as [I2 F1]. destruct (C2 I2) as [I3 F2].
  split; [exact I3 | intros b N; eapply frame_trans; eauto].
Qed.

(** One may assume [Inv s]. *)
Lemma confined_inv a s s' : (Inv s -> confined a s s') -> confined a s s'.
Proof. intros C I. exact (C I I). Qed.

(** A frame carries the framed connection's share of the invariant over; what is left to check is
    the slab and the share of [a] itself. *)
Lemma confined_intro a s s' :
  slab_ok (s_conns s') (s_free s') (s_hwm s') -> s_epoch s <= s_epoch s' -> lookup [] (s_init s') = None ->
  (forall b, a <> Some b -> frame b s s') ->
  (forall b m, a = Some b -> live s' b m -> m_inc m < s_epoch s' /\ conn_ok (s_ids s') b m) ->
  (forall b kd k, a = Some b -> entry kd s' k b -> exists m, live s' b m /\ claim kd k m) ->
  confined a s s'.
Proof.
  intros Sl Ep Nil Fr Ok Rt I. split; [|exact Fr].
  assert (D : forall b, a = Some b \/ a <> Some b).
  { intros b. destruct a as [c|]; [|right; discriminate].
    destruct (Z.eq_dec c b) as [->|N]; [left; reflexivity | right; congruence]. }
  apply Inv_intro; [exact Sl | | exact Nil |].
  - intros b m L. destruct (D b) as [E|N]; [exact (Ok b m E L)|].
    destruct (Fr b N) as [Ec _ Keep]. rewrite Ec in L.
    split; [pose proof (I_inc s I b m L); lia | exact (ok_ids_change _ _ _ _ (I_ok s I b m L) Keep)].
  - intros kd k b E. destruct (D b) as [Eb|N]; [exact (Rt b kd k Eb E)|].
    destruct (Fr b N) as [Ec Sub _]. rewrite Ec. exact (Inv_routes s kd k b I (Sub kd k E)).
Qed.

Definition same_slab (s s' : st) : Prop :=
  s_conns s' = s_conns s /\ s_free s' = s_free s /\ s_hwm s' = s_hwm s /\ s_epoch s' = s_epoch s.

Lemma confined_maps a s s' :
  same_slab s s' ->
  (forall k ch, k <> [] -> lookup k (s_ids s) = Some ch -> lookup k (s_ids s') = Some ch) ->
  lookup [] (s_init s') = None ->
  (forall kd k ch, entry kd s' k ch ->
                   entry kd s k ch \/ (a = Some ch /\ exists m, live s ch m /\ claim kd k m)) ->
  confined a s s'.
Proof.
  intros (Ec & Ef & Eh & Ee) K N R. apply confined_inv. intros I.
  apply confined_intro; rewrite ?Ec, ?Ef, ?Eh, ?Ee.
  - exact (Inv_slab s I).
  - lia.
  - exact N.
  - intros b Nb. constructor.
    + rewrite Ec. reflexivity.
    + intros kd k E. destruct (R kd k b E) as [E0|[Ea _]]; [exact E0 | contradiction].
    + intros k. apply K.
  - intros b m _ L. split; [exact (I_inc s I b m L)|].
    exact (ok_ids_change _ _ _ _ (I_ok s I b m L) (fun c => K c b)).
  - intros b kd k _ E. destruct (R kd k b E) as [E0|[_ H]]; [exact (Inv_routes s kd k b I E0) | exact H].
Qed.

Lemma confined_shrink a s s' :
  same_slab s s' ->
  (forall kd k ch, entry kd s' k ch -> entry kd s k ch) ->
  (forall k ch, k <> [] -> lookup k (s_ids s) = Some ch -> lookup k (s_ids s') = Some ch) ->
  (lookup [] (s_init s) = None -> lookup [] (s_init s') = None) ->
  confined a s s'.
Proof.
  intros E Sub K N. apply confined_inv. intros I.
  apply (confined_maps a s s' E K (N (I_initnil s I))). intros kd k ch H. left. exact (Sub kd k ch H).
Qed.

Lemma confined_incs a s v n x : confined a s (set_incs s v n x).
Proof. apply confined_shrink; [repeat split | intros [] k ch E; exact E | auto | auto]. Qed.

Definition put (kd : kind) (s : st) (k : key) (ch : Z) : st :=
  match kd with
  | Kids => set_ids s (insert k ch (s_ids s))
  | Kinit => set_init s (insert k (RConn ch) (s_init s))
  | Kin => set_in s (insert k ch (s_in s))
  | Kout => set_out s (insert k ch (s_out s))
  | Ktok => set_tok s (insert k ch (s_tok s))
  end.

Lemma entry_put kd s k ch kd0 k0 ch0 :
  entry kd0 (put kd s k ch) k0 ch0 -> entry kd0 s k0 ch0 \/ (kd0 = kd /\ k0 = k /\ ch0 = ch).
Proof.
  (* [auto]: the twenty cases where [put] changes another map *)
  destruct kd, kd0; cbn [put entry]; rt_red; auto;
    (intros E; apply lookup_insert_Some in E; destruct E as [[-> E]|[_ E]];
     [right; repeat split; congruence | left; exact E]).
Qed.

(** For [connection_ids] the entry is there already, by [ok_complete]. *)
Lemma confined_put kd s k ch m :
  live s ch m -> claim kd k m -> k <> [] -> confined (Some ch) s (put kd s k ch).
Proof.
  intros L C Nk. apply confined_inv. intros I. apply confined_maps.
  - destruct kd; repeat split.
  - intros k0 ch0 _ H0. destruct kd; try exact H0. cbn [put]; rt_red.
    destruct (key_dec k0 k) as [->|N]; [|rewrite lookup_insert_neq; assumption].
    destruct C as [q Hq]. rewrite (ok_complete _ _ _ (I_ok s I ch m L) q k Hq Nk) in H0.
    rewrite lookup_insert_eq. exact H0.
  - destruct kd; try apply I. cbn [put]; rt_red. rewrite lookup_insert_neq by congruence. apply I.
  - intros kd0 k0 ch0 E. destruct (entry_put _ _ _ _ _ _ _ E) as [E0|(-> & -> & ->)]; [left; exact E0 | right].
    split; [reflexivity | exists m; split; [exact L | exact C]].
Qed.

Lemma confined_update s ch m m' ids' :
  live s ch m -> m_inc m' = m_inc m ->
  (forall kd k, kd <> Kids -> entry kd s k ch -> claim kd k m -> claim kd k m') ->
  conn_ok ids' ch m' ->
  (forall c ch0, ch0 <> ch -> c <> [] -> lookup c (s_ids s) = Some ch0 -> lookup c ids' = Some ch0) ->
  (forall c ch0, lookup c ids' = Some ch0 ->
                 (ch0 = ch /\ P_ids c m') \/ (ch0 <> ch /\ lookup c (s_ids s) = Some ch0)) ->
  confined (Some ch) s (set_ids (update_conn s ch m') ids').
Proof.
  intros L Einc Hc Ok Keep Hi. apply confined_inv. intros I. apply confined_intro; rt_red.
  - destruct (Inv_slab s I) as [R F D H]. constructor; try assumption.
    intros ch0 m0 L0. apply live_upd in L0. destruct L0 as [[-> _]|[_ L0]]; eauto.
  - lia.
  - apply I.
  - intros b Nb. assert (N : b <> ch) by congruence. constructor; rt_red.
    + apply lookup_insert_neq. congruence.
    + intros kd k E. destruct kd; try exact E.
      destruct (Hi k b E) as [[E0 _]|[_ E0]]; [contradiction | exact E0].
    + intros k Nk Hk. apply Keep; assumption.
  - intros b m0 [= <-] L0. rewrite lookup_insert_eq in L0. injection L0 as <-.
    split; [rewrite Einc; exact (I_inc s I ch m L) | exact Ok].
  - intros b kd k [= <-] E. exists m'. split; [apply lookup_insert_eq|].
    destruct kd; [destruct (Hi k ch E) as [[_ C]|[N _]]; [exact C | contradiction] |..];
      (apply (Hc _ k); [discriminate | exact E | apply (Inv_claim s _ k ch m I L); exact E]).
Qed.

Lemma first_vacant_spec ids str c rest :
  first_vacant ids str = Some (c, rest) -> lookup c ids = None.
Proof.
  revert c rest. induction str as [|x str IH]; intros c rest; cbn [first_vacant]; [discriminate|].
  destruct (mem x ids) eqn:M; [apply IH|].
  intros [= <- _]. destruct (lookup x ids) as [v|] eqn:L; [|reflexivity].
  rewrite (proj2 (mem_true x ids) (ex_intro _ v L)) in M. discriminate.
Qed.

(** [new_cid]: an empty [c] changes nothing; otherwise [c] was fresh and now routes to [ch]. *)
Record cid_in (c : key) (ch : Z) (ids ids1 : amap Z) : Prop := {
  ci_mono : forall c0 ch0, lookup c0 ids = Some ch0 -> lookup c0 ids1 = Some ch0;
  ci_new : forall c0 ch0, lookup c0 ids1 = Some ch0 -> lookup c0 ids = Some ch0 \/ (ch0 = ch /\ c0 = c);
  ci_at : c <> [] -> lookup c ids1 = Some ch;
  ci_fresh : c <> [] -> lookup c ids = None;
}.

Lemma new_cid_spec s ch str c s1 rest :
  new_cid s ch str = Some (c, s1, rest) ->
  exists ids1, s1 = set_ids s ids1 /\ cid_in c ch (s_ids s) ids1.
Proof.
  unfold new_cid. destruct (s_len s =? 0).
  - intros [= <- <- _]. exists (s_ids s). split; [destruct s; reflexivity|].
    constructor; auto; congruence.
  - destruct (first_vacant (s_ids s) str) as [[c0 r0]|] eqn:F; [|discriminate].
    intros [= <- <- _]. apply first_vacant_spec in F.
    exists (insert c0 ch (s_ids s)). split; [reflexivity|]. constructor.
    + intros c1 ch1 H. rewrite lookup_insert_neq; [exact H | congruence].
    + intros c1 ch1 H. apply lookup_insert_Some in H. destruct H as [[-> ->]|[_ H]]; auto.
    + intros _. apply lookup_insert_eq.
    + intros _. exact F.
Qed.

Definition issue_meta (m : meta) (c : key) : meta :=
  mkMeta (m_inc m) (m_init m) (m_issued m + 1) (insert [m_issued m] c (m_loc m))
         (m_remote m) (m_local m) (m_server m) (m_tok m).

Lemma ok_issue ids ids' ch m c :
  conn_ok ids ch m ->
  (forall k, lookup k (m_loc m) = Some c -> c = []) ->
  (forall c0, lookup c0 ids = Some ch -> lookup c0 ids' = Some ch) ->
  (c <> [] -> lookup c ids' = Some ch) ->
  conn_ok ids' ch (issue_meta m c).
Proof.
  intros [A B C D] F Mono At. unfold issue_meta. constructor; rt_red.
  - intros k c0 H Hn. apply lookup_insert_Some in H. destruct H as [[_ ->]|[_ H]]; eauto.
  - intros k1 k2 c0 H1 H2 Hn. apply lookup_insert_Some in H1. apply lookup_insert_Some in H2.
    destruct H1 as [[-> ->]|[N1 H1]], H2 as [[-> E2]|[N2 H2]].
    + reflexivity.
    + apply F in H2. contradiction.
    + subst c0. apply F in H1. contradiction.
    + eauto.
  - intros q Hq. rewrite lookup_insert_neq; [apply C; lia | intros [= ->]; lia].
  - apply nodupk_insert. exact D.
Qed.

Lemma ok_single ids ch inc init c r l sv :
  (c <> [] -> lookup c ids = Some ch) ->
  conn_ok ids ch (mkMeta inc init 1 [([0], c)] r l sv None).
Proof.
  intros H. apply (ok_issue ids ids ch (mkMeta inc init 0 [] r l sv None) c); [|discriminate | auto | exact H].
  constructor; rt_red; cbn [lookup]; [discriminate | discriminate | reflexivity | constructor].
Qed.

Lemma ok_pair ids ch inc init c1 c2 r l sv :
  (c1 <> [] -> lookup c1 ids = Some ch) -> (c2 <> [] -> lookup c2 ids = Some ch) ->
  (c2 <> [] -> c1 <> c2) ->
  conn_ok ids ch (mkMeta inc init 2 [([1], c2); ([0], c1)] r l sv None).
Proof.
  intros H1 H2 Hd. apply (ok_issue ids ids ch _ c2 (ok_single ids ch inc init c1 r l sv H1)); [| auto | exact H2].
  rt_red. cbn [lookup]. intros k H. destruct (lz_eqb k [0]); [injection H as <- | discriminate].
  destruct (key_dec c1 []) as [E|N]; [exact E | contradiction (Hd N eq_refl)].
Qed.

Lemma confined_issue_one s ch m c ids1 :
  live s ch m -> cid_in c ch (s_ids s) ids1 ->
  confined (Some ch) s (update_conn (set_ids s ids1) ch (issue_meta m c)).
Proof.
  intros L [Mono New At Fresh]. apply confined_inv. intros I.
  pose proof (I_ok s I ch m L) as Ok.
  (* the new sequence number was unused ([ok_seq]) *)
  assert (Pk : forall c0, P_ids c0 m -> P_ids c0 (issue_meta m c)).
  { intros c0 [k Hk]. exists k. unfold issue_meta. rt_red. rewrite lookup_insert_neq; [exact Hk|].
    intros ->. rewrite (ok_seq _ _ _ Ok (m_issued m)) in Hk; [discriminate | lia]. }
  apply (confined_update s ch m (issue_meta m c) ids1 L eq_refl).
  - intros kd k Nk _ C. destruct kd; [contradiction | exact C ..].
  - apply (ok_issue (s_ids s)); auto.
    intros k Hk. destruct (key_dec c []) as [E|N]; [exact E|].
    rewrite (ok_complete _ _ _ Ok k c Hk N) in Fresh. discriminate (Fresh N).
  - intros c0 ch0 _ _. apply Mono.
  - intros c0 ch0 H. destruct (New c0 ch0 H) as [H0|[-> ->]].
    + destruct (Z.eq_dec ch0 ch) as [->|N]; [left | right; auto]. split; [reflexivity|].
      exact (Pk c0 (Inv_claim s Kids c0 ch m I L H0)).
    + left. split; [reflexivity|]. exists [m_issued m]. unfold issue_meta. rt_red. apply lookup_insert_eq.
Qed.

Definition retire_meta (m : meta) (seq : Z) : meta :=
  mkMeta (m_inc m) (m_init m) (m_issued m) (remove [seq] (m_loc m))
         (m_remote m) (m_local m) (m_server m) (m_tok m).

Lemma confined_retire_one s ch m seq c :
  live s ch m -> lookup [seq] (m_loc m) = Some c ->
  confined (Some ch) s (set_ids (update_conn s ch (retire_meta m seq)) (remove c (s_ids s))).
Proof.
  intros L Hc. apply confined_inv. intros I. destruct (I_ok s I ch m L) as [A B C D].
  (* only sequence number [seq] holds [c] *)
  assert (Uniq : forall k c0, lookup k (remove [seq] (m_loc m)) = Some c0 -> c0 <> [] -> c0 <> c).
  { intros k c0 Hk Hn ->. apply lookup_remove_Some in Hk. destruct Hk as [Nk Hk]. exact (Nk (B _ _ _ Hk Hc Hn)). }
  apply (confined_update s ch m (retire_meta m seq) _ L eq_refl).
  - intros kd k Nk _ Ck. destruct kd; [contradiction | exact Ck ..].
  - unfold retire_meta. constructor; rt_red.
    + intros k c0 Hk Hn. rewrite lookup_remove_neq by eauto. apply lookup_remove_Some in Hk. apply (A k). apply Hk. exact Hn.
    + intros k1 k2 c0 H1 H2. apply lookup_remove_Some in H1. apply lookup_remove_Some in H2. apply B; tauto.
    + intros q Hq. rewrite lookup_remove. destruct (lz_eqb [q] [seq]); auto.
    + apply nodupk_remove. exact D.
  - intros c0 ch0 N Hn H. rewrite lookup_remove_neq; [exact H|].
    intros ->. rewrite (A _ _ Hc Hn) in H. congruence.
  - intros c0 ch0 H. apply lookup_remove_Some in H. destruct H as [Nc H].
    destruct (Z.eq_dec ch0 ch) as [->|N]; [left | right; auto]. split; [reflexivity|].
    destruct (Inv_claim s Kids c0 ch m I L H) as [k Hk]. exists k. unfold retire_meta. rt_red. rewrite lookup_remove_neq; [exact Hk | congruence].
Qed.

Lemma slab_insert_spec s m :
  s_conns (slab_insert s m) = insert [vacant_key s] m (s_conns s) /\
  s_epoch (slab_insert s m) = s_epoch s + 1 /\ s_ids (slab_insert s m) = s_ids s /\
  s_init (slab_insert s m) = s_init s /\ s_in (slab_insert s m) = s_in s /\
  s_out (slab_insert s m) = s_out s /\ s_tok (slab_insert s m) = s_tok s.
Proof. unfold slab_insert. destruct (s_free s); rt_red; repeat split. Qed.

Lemma confined_slab_insert s ids1 m :
  (forall c ch0, lookup c (s_ids s) = Some ch0 -> lookup c ids1 = Some ch0) ->
  (forall c ch0, lookup c ids1 = Some ch0 ->
                 lookup c (s_ids s) = Some ch0 \/ (ch0 = vacant_key s /\ P_ids c m)) ->
  m_inc m = s_epoch s -> conn_ok ids1 (vacant_key s) m ->
  confined (Some (vacant_key s)) s (slab_insert (set_ids s ids1) m).
Proof.
  intros Mono New Einc Ok. apply confined_inv. intros I.
  destruct (slab_insert_spec (set_ids s ids1) m) as (Ec & Ee & Ei & Eini & Ein & Eo & Et).
  change (s_conns (slab_insert (set_ids s ids1) m) = insert [vacant_key s] m (s_conns s)) in Ec.
  assert (Rt : forall kd k ch0, entry kd (slab_insert (set_ids s ids1) m) k ch0 ->
                 entry kd s k ch0 \/ (ch0 = vacant_key s /\ claim kd k m)).
  { intros kd k ch0. destruct kd; cbn [entry]; rewrite ?Ei, ?Eini, ?Ein, ?Eo, ?Et; rt_red; [apply New | auto ..]. }
  apply confined_intro.
  - apply slab_ok_insert. exact (Inv_slab s I).
  - rewrite Ee. rt_red. lia.
  - rewrite Eini. apply I.
  - intros b Nb. constructor.
    + rewrite Ec. apply lookup_insert_neq. congruence.
    + intros kd k E. destruct (Rt kd k b E) as [E0|[-> _]]; [exact E0 | congruence].
    + rewrite Ei. intros k _. apply Mono.
  - rewrite Ec, Ee, Ei. rt_red. intros b m0 [= <-] L0. rewrite lookup_insert_eq in L0. injection L0 as <-.
    split; [lia | exact Ok].
  - rewrite Ec. intros b kd k [= <-] E. exists m. split; [apply lookup_insert_eq|].
    destruct (Rt kd k _ E) as [E0|[_ C]]; [|exact C].
    (* nothing routes to a vacant slot *)
    destruct (Inv_routes s kd k _ I E0) as [m0 [L0 _]]. rewrite (vacant_not_live s I) in L0. discriminate.
Qed.

Lemma live_add_connection s init locs issued loc r l server :
  live (add_connection s (vacant_key s) init locs issued loc r l server) (vacant_key s)
       (mkMeta (s_epoch s) init issued locs r l server None).
Proof.
  unfold add_connection, insert_conn. destruct (is_nil loc); [destruct server|]; rt_red;
    rewrite (proj1 (slab_insert_spec s _)); apply lookup_insert_eq.
Qed.

Lemma confined_create s ids1 init locs issued loc r l server :
  let ch := vacant_key s in
  let m := mkMeta (s_epoch s) init issued locs r l server None in
  (forall c ch0, lookup c (s_ids s) = Some ch0 -> lookup c ids1 = Some ch0) ->
  (forall c ch0, lookup c ids1 = Some ch0 -> lookup c (s_ids s) = Some ch0 \/ (ch0 = ch /\ P_ids c m)) ->
  conn_ok ids1 ch m -> P_ids loc m ->
  confined (Some ch) s (add_connection (set_ids s ids1) ch init locs issued loc r l server).
Proof.
  intros ch m Mono New Ok Ploc. unfold add_connection.
  eapply confined_trans; [exact (confined_slab_insert s ids1 m Mono New eq_refl Ok)|].
  set (s1 := slab_insert (set_ids s ids1) m).
  assert (L1 : live s1 ch m) by (unfold s1; rewrite (proj1 (slab_insert_spec _ _)); apply lookup_insert_eq).
  unfold insert_conn. destruct (is_nil loc) eqn:En.
  - destruct server.
    + exact (confined_put Kin s1 [r; l] ch m L1 (conj eq_refl eq_refl) ltac:(discriminate)).
    + exact (confined_put Kout s1 [r] ch m L1 (conj eq_refl eq_refl) ltac:(discriminate)).
  - apply (confined_put Kids s1 loc ch m L1 Ploc). intros ->. discriminate.
Qed.

Lemma confined_create_cid s ids1 init loc r l server :
  cid_in loc (vacant_key s) (s_ids s) ids1 ->
  confined (Some (vacant_key s)) s
           (add_connection (set_ids s ids1) (vacant_key s) init [([0], loc)] 1 loc r l server).
Proof.
  intros [Mono New At Fresh].
  apply (confined_create s ids1 _ _ _ _ _ _ _ Mono); [|apply ok_single; exact At | exists [0]; reflexivity].
  intros c ch0 H. destruct (New c ch0 H) as [H0|[-> ->]]; [left; exact H0 | right].
  split; [reflexivity | exists [0]; reflexivity].
Qed.

Lemma confined_create_cids s ids1 ids2 init loc c2 r l server :
  cid_in loc (vacant_key s) (s_ids s) ids1 -> cid_in c2 (vacant_key s) ids1 ids2 ->
  confined (Some (vacant_key s)) s
           (add_connection (set_ids s ids2) (vacant_key s) init [([1], c2); ([0], loc)] 2 loc r l server).
Proof.
  intros [Mono1 New1 At1 Fresh1] [Mono2 New2 At2 Fresh2].
  apply (confined_create s ids2 _ _ _ _ _ _ _);
    [| |apply ok_pair; [intros N; exact (Mono2 _ _ (At1 N)) | exact At2 |] | exists [0]; reflexivity].
  - intros c ch0 H. exact (Mono2 c ch0 (Mono1 c ch0 H)).
  - intros c ch0 H. destruct (New2 c ch0 H) as [H1|[-> ->]]; [destruct (New1 c ch0 H1) as [H0|[-> ->]]|].
    + left. exact H0.
    + right. split; [reflexivity | exists [0]; reflexivity].
    + right. split; [reflexivity | exists [1]; reflexivity].
  - (* the second CID was generated when the first was already taken *)
    intros N ->. rewrite (At1 N) in Fresh2. discriminate (Fresh2 N).
Qed.

Lemma index_remove_spec v s ch m s' :
  index_remove v s ch m = Some s' ->
  same_slab s s' /\
  s_init s' = (if m_server m then if is_nil (m_init m) then s_init s else remove (m_init m) (s_init s)
               else s_init s) /\
  s_ids s' = remove_all (map snd (m_loc m)) (s_ids s) /\
  s_in s' = (if v_guard v then remove_if [m_remote m; m_local m] ch (s_in s)
             else remove [m_remote m; m_local m] (s_in s)) /\
  s_out s' = (if v_guard v then remove_if [m_remote m] ch (s_out s) else remove [m_remote m] (s_out s)) /\
  s_tok s' = match m_tok m with Some rt => tok_remove v rt ch (s_tok s) | None => s_tok s end.
Proof.
  unfold index_remove, remove_initial, same_slab.
  destruct (m_server m); [destruct (is_nil (m_init m)); [|destruct (mem (m_init m) (s_init s)); [|discriminate]]|];
    intros [= <-]; destruct (m_tok m); rt_red; repeat split.
Qed.

Lemma confined_drained s ch s' : do_drained fixed s ch = Some s' -> confined (Some ch) s s'.
Proof.
  unfold do_drained, slab_remove.
  destruct (lookup [ch] (s_conns s)) as [m|] eqn:L; [|intros [= <-]; apply confined_refl].
  intros H. apply confined_inv. intros I. apply index_remove_spec in H. revert H. unfold same_slab. cbn [v_guard fixed]. rt_red.
  intros ((Ec & Ef & Eh & Ee) & Eini & Eids & Ein & Eo & Et).
  pose proof (I_ok s I ch m L) as Ok.
  pose proof (fun kd k => Inv_claim s kd k ch m I L) as Own.
  assert (Sub : forall kd k ch0, entry kd s' k ch0 -> entry kd s k ch0 /\ ch0 <> ch).
  { intros kd k ch0. destruct kd; cbn [entry]; rewrite ?Eids, ?Eini, ?Ein, ?Eo, ?Et; intros E.
    - apply lookup_remove_all_Some in E. destruct E as [Nin E]. split; [exact E|].
      intros ->. destruct (Own Kids k E) as [q Hq]. apply Nin. exact (lookup_vals _ _ _ Hq).
    - assert (E0 : lookup k (s_init s) = Some (RConn ch0)).
      { destruct (m_server m); [destruct (is_nil (m_init m))|]; try exact E. apply lookup_remove_Some in E. apply E. }
      split; [exact E0|]. intros ->. destruct (Own Kinit k E0) as [Sv <-]. rewrite Sv in E.
      destruct (m_init m); cbn [is_nil] in E; [rewrite (I_initnil s I) in E | rewrite lookup_remove_eq in E]; discriminate.
    - apply lookup_remove_if_Some in E. destruct E as [E Nk]. split; [exact E|].
      intros ->. destruct (Own Kin k E) as [_ Ek]. exact (Nk Ek eq_refl).
    - apply lookup_remove_if_Some in E. destruct E as [E Nk]. split; [exact E|].
      intros ->. destruct (Own Kout k E) as [_ Ek]. exact (Nk Ek eq_refl).
    - destruct (m_tok m) as [[r0 t0]|] eqn:Em.
      + apply lookup_remove_if_Some in E. destruct E as [E Nk]. split; [exact E|].
        intros ->. destruct (Own Ktok k E) as (r1 & t1 & Ht & Ek). rewrite Em in Ht. injection Ht as <- <-.
        exact (Nk Ek eq_refl).
      + split; [exact E|]. intros ->. destruct (Own Ktok k E) as (r1 & t1 & Ht & _). congruence. }
  assert (Keep : forall k ch0, ch0 <> ch -> k <> [] -> lookup k (s_ids s) = Some ch0 -> lookup k (s_ids s') = Some ch0).
  { intros k ch0 N Nk H. rewrite Eids. apply lookup_remove_all_Some. split; [|exact H].
    intros Hin. apply In_vals_lookup in Hin; [|apply Ok]. destruct Hin as [q Hq].
    rewrite (ok_complete _ _ _ Ok q k Hq Nk) in H. congruence. }
  apply confined_intro; rewrite ?Ec, ?Ef, ?Eh, ?Ee.
  - exact (slab_ok_remove _ _ _ ch m (Inv_slab s I) L).
  - lia.
  - rewrite Eini. destruct (m_server m); [destruct (is_nil (m_init m))|]; try apply I.
    rewrite lookup_remove. destruct (lz_eqb [] (m_init m)); [reflexivity | apply I].
  - intros b Nb. assert (N : b <> ch) by congruence. constructor.
    + rewrite Ec. apply lookup_remove_neq. congruence.
    + intros kd k E. apply (Sub kd k b E).
    + intros k Nk H. apply Keep; assumption.
  - intros b m0 [= <-] L0. rewrite lookup_remove_eq in L0. discriminate.
  - intros b kd k [= <-] E. destruct (Sub kd k ch E) as [_ N]. contradiction.
Qed.
