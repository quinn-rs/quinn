(** Range sets of Model/FlowSend.v: well-formedness, pointwise meaning, additivity of the total. *)
From QV Require Import Lib.Tac Lib.Corr Model.FlowSend.
Open Scope Z_scope.

Definition covers (l : list (Z * Z)) (x : Z) : Prop := exists s e, In (s, e) l /\ s <= x < e.

(** Well-formed: sorted, non-empty, pairwise non-adjacent ranges, first start at least [lo]. *)
Fixpoint W (lo : Z) (l : list (Z * Z)) : Prop :=
  match l with
  | [] => True
  | (s, e) :: t => lo <= s /\ s < e /\ W (e + 1) t
  end.

Lemma W_weaken lo lo' l : lo' <= lo -> W lo l -> W lo' l.
Proof. destruct l as [|[s e] t]; cbn; [auto|]. intros H (A & B & C). repeat split; auto; lia. Qed.

Lemma W_covers_ge lo l x : W lo l -> covers l x -> lo <= x.
Proof.
  revert lo. induction l as [|[s e] t IH]; intros lo Hw (s' & e' & Hin & Hx); cbn in *; [tauto|].
  destruct Hw as (A & B & C). destruct Hin as [E|Hin].
  - injection E as <- <-. lia.
  - assert (e + 1 <= x) by (apply (IH (e + 1) C); exists s', e'; auto). lia.
Qed.

Lemma covers_nil x : ~ covers [] x.
Proof. intros (s & e & [] & _). Qed.

Lemma covers_cons s e t x : covers ((s, e) :: t) x <-> s <= x < e \/ covers t x.
Proof.
  split.
  - intros (s' & e' & [E|Hin] & Hx); [injection E as <- <-; auto|right; exists s', e'; auto].
  - intros [Hx|(s' & e' & Hin & Hx)]; [exists s, e; cbn; auto|exists s', e'; cbn; auto].
Qed.

Lemma rs_insert_W l : forall lo a b, a < b -> lo <= a -> W lo l -> W lo (rs_insert a b l).
Proof.
  induction l as [|[s e] t IH]; intros lo a b Hab Hlo Hw; cbn [rs_insert].
  - cbn. auto.
  - cbn in Hw. destruct Hw as (A & B & C).
    destruct (e <? a) eqn:E1.
    + cbn. repeat split; auto. apply IH; auto; lia.
    + destruct (b <? s) eqn:E2.
      * cbn. repeat split; auto; lia.
      * apply IH; try lia. eapply W_weaken; [|exact C]. lia.
Qed.

Lemma rs_insert_covers l : forall a b x,
  (covers (rs_insert a b l) x <-> covers l x \/ a <= x < b).
Proof.
  induction l as [|[s e] t IH]; intros a b x; cbn [rs_insert].
  - rewrite covers_cons. split; intros [H|H]; auto.
  - destruct (e <? a) eqn:E1.
    + rewrite !covers_cons, IH by lia. tauto.
    + destruct (b <? s) eqn:E2.
      * rewrite !covers_cons. tauto.
      * rewrite IH by lia. rewrite covers_cons. split.
        -- intros [H|H]; [auto|]. destruct (Z_lt_dec x a); [left; left; lia|].
           destruct (Z_le_dec b x); [left; left; lia|right; lia].
        -- intros [[H|H]|H]; auto; right; lia.
Qed.

Lemma rs_insert_total l : forall lo a b, W lo l -> a < b ->
  (forall x, a <= x < b -> ~ covers l x) ->
  rs_total (rs_insert a b l) = rs_total l + (b - a).
Proof.
  induction l as [|[s e] t IH]; intros lo a b Hw Hab Hd; cbn [rs_insert rs_total].
  - lia.
  - cbn in Hw. destruct Hw as (A & B & C).
    destruct (e <? a) eqn:E1.
    + cbn [rs_total]. rewrite (IH (e + 1)); auto; [lia|].
      intros x Hx Hc. apply (Hd x Hx). apply covers_cons. auto.
    + destruct (b <? s) eqn:E2.
      * cbn [rs_total]. lia.
      * (* overlapping or adjacent: disjointness leaves adjacency only *)
        assert (Hadj : a = e \/ s = b).
        { destruct (Z.eq_dec a e); [auto|]. destruct (Z.eq_dec s b); [auto|]. exfalso.
          apply (Hd (Z.max a s)); [lia|]. apply covers_cons. left. lia. }
        assert (Ht : forall x, covers t x -> e + 1 <= x) by (intros x; apply W_covers_ge; exact C).
        destruct Hadj as [Ha|Ha].
        -- replace (Z.min a s) with s by lia. replace (Z.max b e) with b by lia.
           rewrite (IH (e + 1)); auto; [lia|lia|].
           intros x Hx Hc. pose proof (Ht x Hc). apply (Hd x); [lia|]. apply covers_cons. auto.
        -- replace (Z.min a s) with a by lia. replace (Z.max b e) with e by lia.
           rewrite (IH (e + 1)); auto; [lia|lia|].
           intros x Hx Hc. pose proof (Ht x Hc). lia.
Qed.

(** [rs_add] = [RangeSet::insert] (empty ranges ignored). *)
Lemma rs_add_W l lo a b : (a < b -> lo <= a) -> W lo l -> W lo (rs_add a b l).
Proof. unfold rs_add. destruct (a <? b) eqn:E; auto. intros. apply rs_insert_W; auto; lia. Qed.

Lemma rs_add_covers l a b x : covers (rs_add a b l) x <-> covers l x \/ a <= x < b.
Proof.
  unfold rs_add. destruct (a <? b) eqn:E; [apply rs_insert_covers|].
  split; [auto|]. intros [H|H]; [auto|lia].
Qed.

Lemma rs_add_total l lo a b : W lo l -> a <= b -> (forall x, a <= x < b -> ~ covers l x) ->
  rs_total (rs_add a b l) = rs_total l + (b - a).
Proof.
  unfold rs_add. intros Hw Hab Hd. destruct (a <? b) eqn:E; [eapply rs_insert_total; eauto; lia|lia].
Qed.

(** The clamping of [SendBuffer::ack] changes nothing here. *)
Lemma rs_add_clamp lo a b l : (a < b -> lo <= a) -> rs_add (Z.max lo a) (Z.max lo b) l = rs_add a b l.
Proof.
  intros H. unfold rs_add. destruct (a <? b) eqn:E.
  - specialize (H ltac:(lia)). replace (Z.max lo a) with a by lia. replace (Z.max lo b) with b by lia.
    rewrite E. reflexivity.
  - destruct (Z.max lo a <? Z.max lo b) eqn:E2; [lia|reflexivity].
Qed.

(** [poll_transmit] takes a prefix of the first lost range. *)
Lemma rs_drop_prefix lo s e t e' :
  W lo ((s, e) :: t) -> s < e' <= e ->
  W lo (if e' =? e then t else rs_add e' e t)
  /\ (forall y, covers (if e' =? e then t else rs_add e' e t) y <-> covers ((s, e) :: t) y /\ ~ s <= y < e')
  /\ rs_total (if e' =? e then t else rs_add e' e t) = rs_total t + (e - e').
Proof.
  cbn [W]. intros (R1 & R2 & R3) He.
  assert (Ht : forall y, covers t y -> e + 1 <= y) by (intros y; apply W_covers_ge; exact R3).
  assert (Wt : W lo t) by (eapply W_weaken; [|exact R3]; lia).
  destruct (e' =? e) eqn:Ee; (split; [|split]).
  - exact Wt.
  - intros y. specialize (Ht y). rewrite covers_cons. intuition lia.
  - lia.
  - apply rs_add_W; [lia|exact Wt].
  - intros y. specialize (Ht y). rewrite rs_add_covers, covers_cons. intuition lia.
  - apply (rs_add_total _ _ e' e R3); [lia|]. intros y Hy Hc. specialize (Ht y Hc). lia.
Qed.

Lemma rs_total_nonneg lo l : W lo l -> 0 <= rs_total l.
Proof.
  revert lo. induction l as [|[s e] t IH]; intros lo Hw; cbn in *; [lia|].
  destruct Hw as (A & B & C). specialize (IH _ C). lia.
Qed.

Lemma covers_head_hi s e t hi : s < e -> (forall x, covers ((s, e) :: t) x -> x < hi) -> e <= hi.
Proof. intros Hse Hh. assert (e - 1 < hi) by (apply Hh; apply covers_cons; left; lia). lia. Qed.

Lemma rs_total_bound l : forall lo hi, W lo l -> (forall x, covers l x -> x < hi) -> lo <= hi ->
  rs_total l <= hi - lo.
Proof.
  (* without [lo <= hi], so that the tail may start beyond [hi] *)
  assert (G : forall lo hi, W lo l -> (forall x, covers l x -> x < hi) -> rs_total l <= Z.max 0 (hi - lo)).
  { induction l as [|[s e] t IH]; intros lo hi Hw Hh; cbn in *; [lia|].
    destruct Hw as (A & B & C). pose proof (covers_head_hi _ _ _ _ B Hh).
    assert (rs_total t <= Z.max 0 (hi - (e + 1)))
      by (apply IH; [exact C|intros x Hc; apply Hh, covers_cons; auto]).
    lia. }
  intros lo hi Hw Hh Hl. specialize (G lo hi Hw Hh). lia.
Qed.

(** [pop_acked]: at most one prefix is popped (the next range is not adjacent). *)
Lemma pop_acked_spec base ulen l :
  W base l -> (forall x, covers l x -> x < base + ulen) -> 0 <= ulen ->
  exists ulen' l',
    pop_acked base ulen l = Some (ulen', l')
    /\ 0 <= ulen' <= ulen
    /\ W (base + (ulen - ulen') + 1) l'
    /\ rs_total l' = rs_total l - (ulen - ulen')
    /\ (forall x, covers l' x <-> covers l x /\ base + (ulen - ulen') <= x)
    /\ (forall x, base <= x < base + (ulen - ulen') -> covers l x).
Proof.
  intros Hw Hh Hu. destruct l as [|[s e] t]; cbn [pop_acked].
  - exists ulen, []. split; [reflexivity|]. split; [lia|]. split; [cbn; auto|].
    split; [cbn; lia|]. split.
    + intros x. split; [intros Hc; destruct (covers_nil _ Hc)|intros [Hc _]; exact Hc].
    + intros x Hx. lia.
  - cbn in Hw. destruct Hw as (A & B & C).
    destruct (s =? base) eqn:E.
    + assert (s = base) by lia. subst s.
      pose proof (covers_head_hi _ _ _ _ B Hh) as He.
      destruct (e - base <=? ulen) eqn:E2; [|lia].
      assert (Hstop : pop_acked e (ulen - (e - base)) t = Some (ulen - (e - base), t)).
      { destruct t as [|[s2 e2] t2]; cbn [pop_acked]; [reflexivity|].
        cbn in C. destruct (s2 =? e) eqn:E3; [lia|reflexivity]. }
      rewrite Hstop. exists (ulen - (e - base)), t.
      replace (base + (ulen - (ulen - (e - base)))) with e by lia.
      split; [reflexivity|]. split; [lia|]. split; [exact C|]. split; [cbn [rs_total]; lia|]. split.
      * intros x. split.
        -- intros Hc. split; [apply covers_cons; auto|]. pose proof (W_covers_ge _ _ _ C Hc). lia.
        -- intros [Hc Hx]. apply covers_cons in Hc. destruct Hc; [lia|auto].
      * intros x Hx. apply covers_cons. left. lia.
    + exists ulen, ((s, e) :: t).
      replace (base + (ulen - ulen)) with base by lia.
      assert (Hw' : W base ((s, e) :: t)) by (cbn; auto).
      split; [reflexivity|]. split; [lia|]. split; [cbn; repeat split; auto; lia|]. split; [lia|]. split.
      * intros x. split; [intros Hc; split; [exact Hc|exact (W_covers_ge _ _ _ Hw' Hc)]|intros [Hc _]; exact Hc].
      * intros x Hx. lia.
Qed.

Lemma W_raise lo lo' l :
  W lo l -> (forall y, lo <= y < lo' -> ~ covers l y) -> W lo' l.
Proof.
  destruct l as [|[s e] t]; cbn; [auto|]. intros (A & B & C) H. repeat split; auto.
  destruct (Z_lt_dec s lo'); [|lia]. exfalso. apply (H s); [lia|]. apply covers_cons. left. lia.
Qed.

Lemma W_hi_empty lo hi l : W lo l -> (forall y, covers l y -> y < hi) -> hi <= lo -> l = [].
Proof.
  destruct l as [|[s e] t]; [auto|]. cbn. intros (A & B & C) H Hl. exfalso.
  assert (s < hi) by (apply H; apply covers_cons; left; lia). lia.
Qed.

Lemma covers_tail s e t y : covers t y -> covers ((s, e) :: t) y.
Proof. intros H. apply covers_cons. auto. Qed.
