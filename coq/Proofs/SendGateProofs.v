(** Proofs about Model/SendGate.v. *)
From QV Require Import Lib.Tac Model.SendGate.
Open Scope Z_scope.

(** congestion control and the pacer are skipped for the closing packet and for loss probes *)
Lemma unlimited_not_blocked : forall g,
  g_ack_eliciting g && negb (g_close g) && (g_probes g =? 0) = false ->
  gate g <> BlockedCongestion /\ (forall d, gate g <> BlockedPacing d).
Proof.
  intros g L. unfold gate. rewrite L.
  destruct (negb (g_can_send g)); [split; [|intros d]; discriminate|].
  destruct (g_antiamp g); split; try intros d; discriminate.
Qed.

Lemma probe_not_blocked : forall g, 0 < g_probes g ->
  gate g <> BlockedCongestion /\ (forall d, gate g <> BlockedPacing d).
Proof.
  intros g H. apply unlimited_not_blocked.
  replace (g_probes g =? 0) with false by lia. apply andb_false_r.
Qed.

Lemma probe_sends : forall g, 0 < g_probes g -> g_can_send g = true -> g_antiamp g = false ->
  gate g = Sends /\ probes_after g = g_probes g - 1.
Proof.
  intros g H C A. unfold probes_after, gate. rewrite C, A.
  replace (g_probes g =? 0) with false by lia. rewrite !andb_false_r. cbn [negb].
  split; [reflexivity|]. replace (0 <? g_probes g) with true by lia. reflexivity.
Qed.

Lemma close_not_blocked : forall g, g_close g = true ->
  gate g <> BlockedCongestion /\ (forall d, gate g <> BlockedPacing d).
Proof.
  intros g H. apply unlimited_not_blocked. rewrite H. cbn [negb]. rewrite andb_false_r. reflexivity.
Qed.

(** under the pacer contract ([delay = Some d -> now < d]) the driver is woken in the future and
    does not spin *)
Lemma pacing_arms : forall g prev d now,
  gate g = BlockedPacing d ->
  (forall x, g_delay g = Some x -> now < x) ->
  pacing_after g prev = Some d /\ now < d.
Proof.
  intros g prev d now E C. unfold pacing_after. rewrite E. split; [reflexivity|].
  apply C. unfold gate in E.
  destruct (negb (g_can_send g)); [discriminate|]. destruct (g_antiamp g); [discriminate|].
  destruct (g_ack_eliciting g && negb (g_close g) && (g_probes g =? 0)); [|discriminate].
  destruct (g_window g <=? g_in_flight g + g_bytes g); [discriminate|].
  destruct (g_delay g); [|discriminate]. inversion E. reflexivity.
Qed.

Lemma ready_sends_or_named_block : forall g, g_can_send g = true ->
  gate g = Sends \/ gate g = BlockedAntiAmp \/ gate g = BlockedCongestion \/ exists d, gate g = BlockedPacing d.
Proof.
  intros g C. unfold gate. rewrite C. cbn [negb].
  destruct (g_antiamp g); [auto|].
  destruct (g_ack_eliciting g && negb (g_close g) && (g_probes g =? 0)); [|auto].
  destruct (g_window g <=? g_in_flight g + g_bytes g); [auto|].
  destruct (g_delay g); eauto.
Qed.
