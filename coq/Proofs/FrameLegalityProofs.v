(** The frame x space x side table is checked row by row by one evaluation ([table_ok]); the
    classification theorem is read off a checked row. *)
From QV Require Import Lib.Tac Model.FrameLegality.
Import FrameLegality.
Open Scope Z_scope.

Lemma all_frames_complete f : In f all_frames.
Proof. destruct f; cbn; tauto. Qed.
Lemma all_spaces_complete s : In s all_spaces.
Proof. destruct s; cbn; tauto. Qed.
Lemma all_sides_complete s : In s all_sides.
Proof. destruct s; cbn; tauto. Qed.

Lemma table_ok_true : table_ok = true.
Proof. vm_compute. reflexivity. Qed.

Lemma row_ok_all f sp sd : row_ok f sp sd = true.
Proof.
  pose proof table_ok_true as H. unfold table_ok in H.
  rewrite forallb_forall in H. specialize (H f (all_frames_complete f)).
  rewrite forallb_forall in H. specialize (H sp (all_spaces_complete sp)).
  rewrite forallb_forall in H. exact (H sd (all_sides_complete sd)).
Qed.

(** For every frame kind, packet space and receiving side: a placement the RFCs forbid is
    answered with PROTOCOL_VIOLATION, except the listed lenient placements (dispatched to the
    ordinary handler or draining); a permitted placement is dispatched (or drains, for close
    frames), except APPLICATION_CLOSE in 0-RTT which is answered with PROTOCOL_VIOLATION; no
    placement has any other outcome. *)
Lemma violation_class_table_lemma : forall f sp sd,
  match legal f sp sd with
  | Unreachable => sp = ZeroRtt /\ sd = Client
  | o =>
      (rfc_permits f sp sd = false ->
         o = Err PROTOCOL_VIOLATION \/ (lenient f sp sd = true /\ (o = Dispatch \/ o = Drain))) /\
      (rfc_permits f sp sd = true ->
         (o = Dispatch \/ o = Drain) \/ (stricter f sp sd = true /\ o = Err PROTOCOL_VIOLATION))
  end.
Proof.
  intros f sp sd. pose proof (row_ok_all f sp sd) as H. unfold row_ok in H.
  destruct (legal f sp sd) as [| |c|]; cbn [is_ok is_pv orb] in H.
  - destruct (rfc_permits f sp sd); split; intros E; try discriminate E.
    + left. left. reflexivity.
    + right. rewrite andb_true_r in H. split; [exact H|left; reflexivity].
  - destruct (rfc_permits f sp sd); split; intros E; try discriminate E.
    + left. right. reflexivity.
    + right. rewrite andb_true_r in H. split; [exact H|right; reflexivity].
  - destruct (rfc_permits f sp sd); split; intros E; try discriminate E.
    + right. apply andb_true_iff in H. destruct H as [Hs Hc]. apply Z.eqb_eq in Hc.
      split; [exact Hs|f_equal; exact Hc].
    + left. rewrite andb_false_r, orb_false_r in H. apply Z.eqb_eq in H. f_equal. exact H.
  - destruct sp, sd; try discriminate H. split; reflexivity.
Qed.

Lemma table_length : length table = 192%nat.
Proof. vm_compute. reflexivity. Qed.
