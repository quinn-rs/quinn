(** C17: a rejected 0-RTT state equals a brand-new state, for a state of the shape [EarlyShape]
    (shown of the initial state only). *)
From QV Require Import Lib.Tac Lib.Corr Model.FlowSend Model.ZeroRtt Proofs.FlowSendAcc
  Proofs.FlowSendProofs.
Open Scope Z_scope.

(** The shape of a client state at the end of a 0-RTT phase: nothing was received from the peer
    (no events, no remote stream opened or accepted), every locally opened stream is still in
    the map, and apart from them the map holds exactly the untouched remote streams. *)
Definition EarlyShape (s : State) : Prop :=
  s.(events) = [] /\ s.(opened_bi) = false /\ s.(next_remote_bi) = 0 /\ s.(next_reported_bi) = 0
  /\ exists m1,
       remove_locals s.(side) 0 (Z.to_nat s.(next_bi)) s.(send) = Some m1
       /\ remove_locals s.(side) 1 (Z.to_nat s.(next_uni)) m1
          = Some (remote_bi s.(side) (Z.to_nat s.(max_remote_bi)) []).

(** Field-by-field (whole-record) equality, for ANY new parameters. *)
Theorem rejected_is_fresh_shape s p :
  EarlyShape s -> reject_and_params p s = Some (fresh_with p s).
Proof.
  intros (He & Ho & Hr & Hp & m1 & R1 & R2).
  unfold reject_and_params, do_reject, reject_with, CODE_FIXED. rewrite R1, R2.
  unfold fresh_with. rewrite start_eq. f_equal.
  pose proof (remote_bi_allnone s.(side) (Z.to_nat s.(max_remote_bi))) as An.
  destruct s. st_all. subst.
  unfold do_set_params. st_goal.
  rewrite (set_remote_limits_none _ _ _ An). reflexivity.
Qed.

(** The brand-new state itself has the early shape (base case of [C17_rejected_is_fresh_full]). *)
Lemma early_shape_start sd mrb sw p0 :
  0 <= sd <= 1 -> EarlyShape (do_set_params p0 (init sd mrb sw)).
Proof.
  intros Hs. rewrite start_eq. unfold EarlyShape. cbn.
  repeat split. eexists. split; reflexivity.
Qed.

(** Before the repair ([reject_with false] = the code as found) the equality fails: F3. *)
Definition case_f3 : ops :=
  [[0; 0; 0; 0; 100]; [1; 5000; 1; 0; 500; 500; 500]; [2; 0]; [3; 0; 100]].
Definition state_after (i : ops) : State :=
  fold_left (fun s op => match step op s with Some (s', _) => s' | None => s end) i init0.
Definition p_f3 : Params := mkParams 5000 1 0 500 500 500.

Lemma rejected_is_fresh_refuted_before_fix :
  exists s p, EarlyShape s /\
    match reject_with false s with
    | Some s' => unacked_data (do_set_params p s') <> unacked_data (fresh_with p s)
    | None => False
    end.
Proof.
  exists (state_after case_f3), p_f3. split.
  - unfold EarlyShape. vm_compute. repeat split. eexists. split; reflexivity.
  - vm_compute. discriminate.
Qed.

Lemma rejected_max_data_refuted_before_fix :
  exists s p,
    match reject_with false s with
    | Some s' => max_data (do_set_params p s') <> max_data (fresh_with p s)
    | None => False
    end.
Proof.
  exists (state_after [[0; 0; 0; 0; 1048576]; [1; 5000; 1; 0; 5000; 5000; 5000]]),
         (mkParams 1000 1 0 5000 5000 5000).
  vm_compute. discriminate.
Qed.

(** Non-vacuity: a non-trivial early state (two streams, one blocked by the window, data sent). *)
Definition case_early : ops :=
  [[0; 0; 0; 2; 100]; [1; 5000; 2; 1; 500; 80; 500]; [2; 0]; [2; 1]; [3; 0; 100]; [3; 2; 50];
   [9; 1200]; [4; 0]; [2; 0]; [5; 4]].

Example early_shape_example :
  EarlyShape (state_after case_early) /\ next_bi (state_after case_early) = 2
  /\ data_sent (state_after case_early) = 100 /\ unacked_data (state_after case_early) = 100.
Proof.
  split; [|vm_compute; repeat split].
  unfold EarlyShape. vm_compute. repeat split. eexists. split; reflexivity.
Qed.

Definition case_lone_fin : ops :=
  [[0; 0; 0; 0; 1048576]; [1; 5000; 2; 1; 500; 500; 500]; [2; 0]; [4; 0]; [9; 1200]].

(** With the code as found ([retry_with false]) a stream finished without data is neither
    [fin_pending] nor queued after the Retry. *)
Lemma retry_lone_fin_refuted_before_fix :
  match retry_with false (state_after case_lone_fin) with
  | Some s' =>
      match lookup 0 s'.(send) with
      | Some (Some x) => is_pending x = false /\ s'.(pendq) = [] /\ x.(s_state) = 1
      | _ => False
      end
  | None => False
  end.
Proof. vm_compute. repeat split. Qed.

(** With the repaired code it is pending again. *)
Lemma retry_lone_fin_fixed :
  match do_retry (state_after case_lone_fin) with
  | Some s' =>
      match lookup 0 s'.(send) with
      | Some (Some x) => x.(s_fin_pending) = true /\ s'.(pendq) = [0] /\ x.(s_unsent) = 0
      | _ => False
      end
  | None => False
  end.
Proof. vm_compute. repeat split. Qed.
