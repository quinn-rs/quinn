(** Proofs about Model/Mtud.v (C13, component level): the invariant [FInv] of contract-respecting
    histories and what it gives. *)
From QV Require Import Lib.Tac Lib.Corr gen.Constants Model.Mtud.
Open Scope Z_scope.

Section Proofs.
Variable MPR BHT : Z.
Hypothesis MPR_pos : 1 <= MPR.

(* [true]: the code after the F8 repair ([F8FIXED]) *)
Notation step := (Mtud.step MPR BHT true).
Notation poll_searching := (Mtud.poll_searching MPR).
Notation enabled_poll := (Mtud.enabled_poll MPR).

(** min(config.upper_bound, peer max_udp_payload_size) *)
Definition Ustar (e : Enabled) : Z := Z.min (c_upper (config e)) (peer_max e).

(** Invariant of a stored [Searching] state relative to the current MTU. *)
Definition SInv (cur : Z) (e : Enabled) (s : Search) : Prop :=
  min_change s = c_min_change (config e) /\
  upper s <= Z.max cur (Ustar e) /\
  0 <= lost_count s /\
  match in_flight s with
  | Some _ => lost_count s < MPR /\ lower s = cur /\ cur < last_probed s <= upper s
  | None => if lost_count s =? 0 then last_probed s = cur /\ lower s <= cur <= upper s
            else lost_count s <= MPR /\ lower s = cur /\ cur < last_probed s <= upper s
  end.

Definition EInv (cur : Z) (e : Enabled) : Prop :=
  3 <= c_min_change (config e) /\ cur <= peer_max e /\
  match phase e with Searching s => SInv cur e s | _ => True end.

Definition MInv (m : Mtud) : Prop :=
  match st m with None => True | Some e => EInv (cur m) e end.

(** Caller contract of [Connection] (see the call sites in connection/mod.rs, paths.rs). *)
Definition op_ok (m : Mtud) (op : Op) : Prop :=
  match op with
  | OProbeLost => in_flight_probe m <> None
  | ONew i mn p en c => 3 <= c_min_change c /\ mn <= i /\ (p = None -> i <= MAX_UDP_PAYLOAD)
  | OReset c mn => mn <= c
  | _ => True
  end.

Definition outstanding (m : Mtud) : option Z :=
  match st m with
  | Some e => match phase e with
              | Searching s => match in_flight s with Some _ => Some (last_probed s) | None => None end
              | _ => None
              end
  | None => None
  end.

Lemma clamp_bounds x lo hi : lo <= hi -> lo <= clamp x lo hi <= Z.max lo (Z.min x hi).
Proof. intros H. unfold clamp. destruct (x <? lo) eqn:E1; [lia|]. destruct (hi <? x) eqn:E2; lia. Qed.

Lemma search_new_SInv cur e :
  cur <= peer_max e -> SInv cur e (search_new cur (peer_max e) (config e)).
Proof.
  intros H. unfold SInv, search_new, Ustar. cbn [min_change upper lower last_probed in_flight lost_count].
  pose proof (clamp_bounds (c_upper (config e)) (Z.min cur (peer_max e)) (peer_max e) ltac:(lia)).
  cbn [Z.eqb]. replace (Z.min cur (peer_max e)) with cur in * by lia. repeat split; lia.
Qed.

Lemma SInv_in_flight cur e lo up p pn lc :
  up <= Z.max cur (Ustar e) -> 0 <= lc < MPR -> lo = cur -> cur < p <= up ->
  SInv cur e (mkSearch lo up (c_min_change (config e)) p (Some pn) lc).
Proof.
  intros. unfold SInv. cbn [min_change upper lower last_probed in_flight lost_count]. repeat split; lia.
Qed.

Lemma SInv_probe_bounds cur e s pn :
  SInv cur e s -> in_flight s = Some pn -> cur < last_probed s <= Ustar e.
Proof. intros (_ & Hu & _ & H) Ef. rewrite Ef in H. lia. Qed.

(** [next_mtu_to_probe] narrows the search to [lo, up] (above the last acknowledged size, or below
    the last lost one); with [minimum_change >= 3] a size it returns lies strictly inside. *)
Lemma next_mtu_to_probe_spec s ok s' r :
  next_mtu_to_probe s ok = Some (s', r) ->
  let lo := if ok then last_probed s else lower s in
  let up := if ok then upper s else last_probed s - 1 in
  s' = mkSearch lo up (min_change s) (last_probed s) (in_flight s) (lost_count s) /\
  forall p, r = Some p ->
    3 <= min_change s -> lo <= last_probed s <= up + 1 -> lo < p <= up.
Proof.
  intros H lo up. unfold next_mtu_to_probe in H.
  (* either choice of bounds, then the same three outcomes *)
  destruct ok; [|destruct (last_probed s =? 0); [discriminate|]]; subst lo up; revert H.
  all: destruct (Z.abs _ <? _) eqn:E1; [destruct (_ <=? Z.max _ _) eqn:E2|].
  all: intros [= <- <-]; split; [reflexivity|]; intros p [= <-]; lia.
Qed.

(** The heart: one [poll_transmit] on a [Searching] state satisfying the invariant. *)
Lemma poll_searching_spec cur e s now pn e' r :
  3 <= c_min_change (config e) -> SInv cur e s ->
  poll_searching e s now pn = Some (e', r) ->
  exists ph, e' = set_phase e ph /\
    match ph with
    | Searching s' =>
        SInv cur e s' /\
        forall p, r = Some p -> in_flight s = None /\ in_flight s' = Some pn /\ last_probed s' = p
    | _ => r = None
    end.
Proof.
  intros Hmc HS H. pose proof HS as (Hm & Hu & Hl & Hcls). unfold Mtud.poll_searching in H.
  destruct (in_flight s) as [f|] eqn:Ef.
  { injection H as <- <-. exists (Searching s). split; [reflexivity|]. split; [exact HS|]. intros p [=]. }
  destruct ((0 <? lost_count s) && (lost_count s <? MPR)) eqn:E1.
  { (* retransmission of the last size *)
    injection H as <- <-. eexists. split; [reflexivity|]. unfold set_in_flight. split.
    - destruct (lost_count s =? 0) eqn:E0; [lia|]. rewrite Hm. apply SInv_in_flight; lia.
    - intros p [= <-]. auto. }
  match type of H with context [next_mtu_to_probe ?s1 ?ok] =>
    destruct (next_mtu_to_probe s1 ok) as [[s2 r2]|] eqn:En; [|discriminate] end.
  apply next_mtu_to_probe_spec in En as (-> & Hp). cbn [lower upper min_change lost_count] in H.
  destruct r2 as [p|]; injection H as <- <-; eexists; (split; [reflexivity|]); [|reflexivity].
  split; [|intros p' [= <-]; auto]. specialize (Hp p eq_refl).
  (* previous probe acknowledged or search fresh: [cur, upper]; retransmissions exhausted:
     [cur, last_probed - 1] *)
  destruct (lost_count s =? 0) eqn:E0; cbn [lower upper min_change last_probed lost_count] in *;
    rewrite Hm; apply SInv_in_flight; lia.
Qed.

(** [poll_transmit] either waits for the next round or polls a search: the stored one, or a
    fresh one when none is stored. *)
Lemma enabled_poll_cases cur e now pn res :
  EInv cur e -> enabled_poll e now cur pn = Some res ->
  res = (e, None) \/
  exists s, SInv cur e s /\ poll_searching e s now pn = Some res /\
            (in_flight s = None -> match phase e with Searching s0 => in_flight s0 | _ => None end = None).
Proof.
  intros (_ & Hcur & Hph). pose proof (search_new_SInv cur e Hcur) as Hnew. unfold Mtud.enabled_poll.
  destruct (phase e) as [|s|t]; intros H.
  - right. exists (search_new cur (peer_max e) (config e)). auto.
  - right. exists s. auto.
  - destruct (now <? t); [left; congruence|].
    right. exists (search_new cur (peer_max e) (config e)). auto.
Qed.

Lemma poll_spec m e now pn e' r :
  MInv m -> st m = Some e -> enabled_poll e now (cur m) pn = Some (e', r) ->
  let m' := mkMtud (cur m) (Some e') (bhd m) in
  MInv m' /\ peer_max e' = peer_max e /\
  forall p, r = Some p ->
    in_flight_probe m = None /\ cur m < p <= Ustar e /\
    in_flight_probe m' = Some pn /\ outstanding m' = Some p.
Proof.
  unfold MInv, in_flight_probe, outstanding. cbn [st cur]. intros HM Hs H. rewrite Hs in *.
  apply (enabled_poll_cases _ _ _ _ _ HM) in H as [[= -> ->] | (s & HS & H & Hfl)].
  { split; [exact HM|]. split; [reflexivity|]. intros p [=]. }
  destruct HM as (Hmc & Hcur & _).
  destruct (poll_searching_spec _ _ _ _ _ _ _ Hmc HS H) as (ph & -> & Hr).
  cbn [set_phase phase]. split; [|split; [reflexivity|]].
  - split; [exact Hmc|]. split; [exact Hcur|]. destruct ph; try exact I. apply Hr.
  - intros p ->. destruct ph as [|s'|t]; try discriminate Hr.
    destruct Hr as (HS' & Hr). destruct (Hr p eq_refl) as (Ha & Hb & <-). rewrite Hb.
    split; [exact (Hfl Ha)|]. split; [eapply SInv_probe_bounds; eauto | auto].
Qed.

Lemma on_peer_max_spec m v m' :
  on_peer_max m v = Some m' ->
  cur m' = Z.min (cur m) v /\ bhd m' = bhd m /\
  match st m, st m' with
  | None, None => True
  | Some e, Some e' => phase e' = phase e /\ config e' = config e /\ peer_max e' = v /\
                       (forall s, phase e <> Searching s)
  | _, _ => False
  end.
Proof.
  unfold on_peer_max. destruct (st m) as [e|].
  - destruct (phase e) eqn:Ep; intros [= <-]; cbn [cur bhd st phase config peer_max];
      repeat split; auto; discriminate.
  - intros [= <-]. cbn [cur bhd st]. auto.
Qed.

(** [new] and [reset] start from the [Initial] phase, where the peer's limit always applies. *)
Lemma mtud_new_eq i mn p en c :
  mtud_new i mn p en c =
  if en then
    if i <? mn then None
    else Some (mkMtud (match p with Some v => Z.min i v | None => i end)
                      (Some (mkEnabled Initial (match p with Some v => v | None => MAX_UDP_PAYLOAD end) c))
                      (bhd_new mn))
  else Some (mkMtud i None (bhd_new mn)).
Proof. unfold mtud_new. destruct en, p; reflexivity. Qed.

Lemma mtud_reset_eq m c mn :
  mtud_reset m c mn =
  Some (mkMtud (match st m with Some e => Z.min c (peer_max e) | None => c end)
               (match st m with Some e => Some (mkEnabled Initial (peer_max e) (config e)) | None => None end)
               (bhd_new mn)).
Proof. unfold mtud_reset. destruct (st m); reflexivity. Qed.

Lemma probe_acked_inv e pn e' new :
  enabled_on_probe_acked e pn = Some (e', new) ->
  exists s, phase e = Searching s /\ in_flight s = Some pn /\ new = last_probed s /\
    e' = set_phase e (Searching (mkSearch (lower s) (upper s) (min_change s) (last_probed s) None 0)).
Proof.
  unfold enabled_on_probe_acked. destruct (phase e) as [|s|t]; try discriminate.
  destruct (in_flight s) as [f|] eqn:Ef; [|discriminate]. destruct (f =? pn) eqn:E; [|discriminate].
  intros [= <- <-]. exists s. rewrite Ef. repeat split. f_equal. lia.
Qed.

Lemma step_bhd m op m' r :
  step m op = Some (m', r) ->
  match op with
  | ONew _ mn _ _ _ | OReset _ mn => bhd m' = bhd_new mn
  | OPeerMax _ | OPoll _ _ | OProbeLost => bhd m' = bhd m
  | OAcked _ pn len =>
      bhd m' = bhd m \/ bhd m' = bhd_on_probe_acked (bhd m) pn len \/
      bhd m' = bhd_on_non_probe_acked (bhd m) pn len
  | ONonProbeLost pn len => bhd_on_non_probe_lost BHT (bhd m) pn len = Some (bhd m')
  | OBlackHole _ => bhd m' = fst (bhd_black_hole_detected BHT (bhd m))
  end.
Proof.
  destruct op as [i mn p en c|c mn|v|now pn|sp pn len| |pn len|now]; cbn [Mtud.step].
  - rewrite mtud_new_eq. destruct en; [destruct (i <? mn); [discriminate|]|]; intros [= <- _]; reflexivity.
  - rewrite mtud_reset_eq. intros [= <- _]. reflexivity.
  - destruct (on_peer_max m v) as [m1|] eqn:E; [|discriminate]. intros [= <- _].
    apply on_peer_max_spec in E. apply E.
  - destruct (st m) as [e|]; [destruct (enabled_poll e now (cur m) pn) as [[e' r']|]; [|discriminate]|];
      intros [= <- _]; reflexivity.
  - destruct (negb (is_data sp)); [intros [= <- _]; auto|].
    destruct (match st m with Some e => enabled_on_probe_acked e pn | None => None end) as [[e' new]|];
      intros [= <- _]; auto.
  - intros [= <- _]. reflexivity.
  - destruct (bhd_on_non_probe_lost BHT (bhd m) pn len) as [b|]; [|discriminate]. intros [= <- _]. reflexivity.
  - destruct (bhd_black_hole_detected BHT (bhd m)) as [b det]. destruct det; intros [= <- _]; reflexivity.
Qed.

Lemma finish_bmin b : bmin_mtu (finish_loss_burst BHT b) = bmin_mtu b.
Proof.
  unfold finish_loss_burst. destruct (cur_burst b) as [[sm latest]|]; [|reflexivity].
  destruct ((sm <=? bmin_mtu b) || (latest <? largest_post_loss b) && (sm <=? acked_mtu b)); reflexivity.
Qed.

Lemma lost_bmin b pn len b' : bhd_on_non_probe_lost BHT b pn len = Some b' -> bmin_mtu b' = bmin_mtu b.
Proof.
  unfold bhd_on_non_probe_lost. destruct (cur_burst b) as [[sm latest]|].
  - destruct (pn <? latest); [discriminate|]. destruct (pn - latest =? 1); intros [= <-];
      cbn [bmin_mtu]; auto using finish_bmin.
  - intros [= <-]. reflexivity.
Qed.

Lemma detect_bmin b : bmin_mtu (fst (bhd_black_hole_detected BHT b)) = bmin_mtu b.
Proof.
  unfold bhd_black_hole_detected.
  destruct (Z.of_nat (length (bursts (finish_loss_burst BHT b))) <=? BHT); cbn [fst bmin_mtu]; apply finish_bmin.
Qed.

Lemma acked_bmin b pn len : bmin_mtu (bhd_on_non_probe_acked b pn len) = bmin_mtu b.
Proof. unfold bhd_on_non_probe_acked. destruct (len <=? acked_mtu b); reflexivity. Qed.

Lemma step_bmin m op m' r :
  step m op = Some (m', r) ->
  bmin_mtu (bhd m') = match op with ONew _ mn _ _ _ | OReset _ mn => mn | _ => bmin_mtu (bhd m) end.
Proof.
  intros H. apply step_bhd in H.
  destruct op; try (rewrite H; reflexivity).
  - destruct H as [->|[->| ->]]; [reflexivity | reflexivity | apply acked_bmin].
  - eapply lost_bmin, H.
  - rewrite H. apply detect_bmin.
Qed.

(** Ghost: the lowest peer limit received so far. *)
Definition plow_step (plow : Z) (op : Op) : Z :=
  match op with
  | ONew _ _ p _ _ => match p with Some v => v | None => MAX_UDP_PAYLOAD end
  | OPeerMax v => Z.min v plow
  | _ => plow
  end.

Definition FInv (m : Mtud) (plow : Z) : Prop :=
  MInv m /\ Z.min (bmin_mtu (bhd m)) plow <= cur m /\
  match st m with Some e => plow <= peer_max e | None => True end.

Lemma step_finv m plow op m' r :
  FInv m plow -> op_ok m op -> step m op = Some (m', r) -> FInv m' (plow_step plow op).
Proof.
  intros HI Hok H. pose proof HI as (HM & HF & HP). unfold FInv. rewrite (step_bmin _ _ _ _ H).
  unfold MInv, EInv in HM |- *.
  destruct op as [i mn p en c|c mn|v|now pn|sp pn len| |pn len|now]; cbn [Mtud.step plow_step op_ok] in *.
  - rewrite mtud_new_eq in H. destruct Hok as (Hmc & Hmn & Hp).
    destruct en; [destruct (i <? mn) eqn:E; [discriminate|]|]; injection H as <- <-;
      cbn [cur st phase config peer_max]; destruct p; repeat split; lia.
  - rewrite mtud_reset_eq in H. injection H as <- <-. cbn [cur st].
    destruct (st m) as [e|]; cbn [phase config peer_max]; repeat split; lia.
  - destruct (on_peer_max m v) as [m1|] eqn:E; [|discriminate]. injection H as -> <-.
    apply on_peer_max_spec in E as (-> & _ & E).
    destruct (st m) as [e|], (st m') as [e'|]; try contradiction; [|repeat split; lia].
    destruct E as (-> & -> & -> & Ed), HM as (Hmc & Hpeer & Hph).
    repeat split; try lia. destruct (phase e); auto. exfalso. eapply Ed. reflexivity.
  - destruct (st m) as [e|] eqn:Es; [|injection H as <- <-; rewrite Es; auto].
    destruct (enabled_poll e now (cur m) pn) as [[e' r']|] eqn:E; [|discriminate].
    injection H as <- <-. destruct (poll_spec _ _ _ _ _ _ (proj1 HI) Es E) as (HM' & Hpm & _).
    split; [exact HM'|]. cbn [cur st]. rewrite Hpm. auto.
  - destruct (negb (is_data sp)); [injection H as <- <-; auto|].
    destruct (st m) as [e|]; cbv beta iota in H; [|injection H as <- <-; cbn [cur st]; auto].
    destruct (enabled_on_probe_acked e pn) as [[e' new]|] eqn:E;
      injection H as <- <-; cbn [cur st]; [|auto].
    (* the probe in flight is acknowledged: its size becomes the current MTU *)
    apply probe_acked_inv in E as (s & Ep & Ef & -> & ->).
    rewrite Ep in HM. destruct HM as (Hmc & Hpeer & Smc & Sup & Slost & Sfl). rewrite Ef in Sfl.
    unfold SInv, Ustar in *.
    cbn [set_phase phase config peer_max min_change upper lower last_probed in_flight lost_count Z.eqb].
    repeat split; lia.
  - injection H as <- <-. cbn [cur st]. unfold in_flight_probe in Hok.
    destruct (st m) as [e|]; [|auto]. unfold enabled_on_probe_lost.
    destruct (phase e) as [|s|t] eqn:Ep; [rewrite Ep; auto| |rewrite Ep; auto].
    destruct HM as (Hmc & Hpeer & Smc & Sup & Slost & Sfl).
    destruct (in_flight s) as [f|]; [|contradiction]. unfold SInv, Ustar in *.
    cbn [set_phase phase config peer_max min_change upper lower last_probed in_flight lost_count].
    destruct (lost_count s + 1 =? 0) eqn:E0; repeat split; lia.
  - destruct (bhd_on_non_probe_lost BHT (bhd m) pn len) as [b|]; [|discriminate].
    injection H as <- <-. auto.
  - pose proof (detect_bmin (bhd m)) as Hb.
    destruct (bhd_black_hole_detected BHT (bhd m)) as [b det]. cbn [fst] in Hb.
    destruct det; injection H as <- <-; cbn [cur st]; [|auto].
    (* fallback to min(current, min_mtu); the search stops *)
    rewrite Hb. destruct (st m) as [e|]; cbn [set_phase phase config peer_max]; repeat split; lia.
Qed.

(** Reachable states: any contract-respecting op sequence from scratch ([ONew] creates). *)
Inductive reach : Mtud -> Z -> Prop :=
| reach_init : reach dummy 0
| reach_step m plow op m' r :
    reach m plow -> op_ok m op -> step m op = Some (m', r) -> reach m' (plow_step plow op).

Lemma reach_finv m plow : reach m plow -> FInv m plow.
Proof.
  induction 1 as [|m plow op m' r Hr IH Hok Hs].
  - unfold FInv, MInv, dummy. cbn. repeat split; auto; lia.
  - eapply step_finv; eauto.
Qed.

Lemma probe_bounds m plow e now pn e' p :
  reach m plow -> st m = Some e ->
  enabled_poll e now (cur m) pn = Some (e', Some p) ->
  in_flight_probe m = None /\
  cur m < p <= Z.min (c_upper (config e)) (peer_max e) /\
  in_flight_probe (mkMtud (cur m) (Some e') (bhd m)) = Some pn /\
  outstanding (mkMtud (cur m) (Some e') (bhd m)) = Some p.
Proof.
  intros Hr Hs Hp. apply reach_finv in Hr as (HM & _).
  destruct (poll_spec _ _ _ _ _ _ HM Hs Hp) as (_ & _ & H). apply (H p eq_refl).
Qed.

(** The estimate rises only by acknowledgement of the in-flight probe, to exactly its size
    (or by explicit re-initialisation).  Step-local: needs no invariant. *)
Lemma mtu_rises_only_on_probe_ack m op m' r :
  step m op = Some (m', r) -> cur m < cur m' ->
  (exists i mn p en c, op = ONew i mn p en c) \/ (exists c mn, op = OReset c mn) \/
  (exists sp pn len, op = OAcked sp pn len /\ is_data sp = true /\
     in_flight_probe m = Some pn /\ r = 1 /\ outstanding m = Some (cur m')).
Proof.
  intros H Hlt.
  destruct op as [i mn p en c|c mn|v|now pn|sp pn len| |pn len|now]; cbn [Mtud.step] in H.
  - left. eauto 10.
  - right. left. eauto.
  - destruct (on_peer_max m v) as [m1|] eqn:E; [|discriminate]. injection H as -> <-.
    apply on_peer_max_spec in E. lia.
  - destruct (st m) as [e|]; [|injection H as <- <-; lia].
    destruct (enabled_poll e now (cur m) pn) as [[e' r']|]; [|discriminate].
    injection H as <- <-. cbn [cur] in Hlt. lia.
  - right. right. destruct (is_data sp) eqn:Ed; cbn [negb] in H; [|injection H as <- <-; lia].
    destruct (st m) as [e|] eqn:Es; [|injection H as <- <-; cbn [cur] in Hlt; lia].
    destruct (enabled_on_probe_acked e pn) as [[e' new]|] eqn:E;
      injection H as <- <-; cbn [cur] in Hlt; [|lia].
    apply probe_acked_inv in E as (s & Ep & Ef & -> & _).
    exists sp, pn, len. unfold in_flight_probe, outstanding. rewrite Es, Ep, Ef. auto.
  - injection H as <- <-. cbn [cur] in Hlt. lia.
  - destruct (bhd_on_non_probe_lost BHT (bhd m) pn len); [|discriminate].
    injection H as <- <-. cbn [cur] in Hlt. lia.
  - destruct (bhd_black_hole_detected BHT (bhd m)) as [b det].
    destruct det; injection H as <- <-; cbn [cur] in Hlt; lia.
Qed.

Lemma mtu_floor m plow :
  reach m plow -> Z.min (bmin_mtu (bhd m)) plow <= cur m.
Proof. intros H. apply reach_finv in H. apply H. Qed.

(** While MTU discovery is enabled the estimate never exceeds the peer's limit. *)
Lemma mtu_within_peer_limit m plow e :
  reach m plow -> st m = Some e -> cur m <= peer_max e.
Proof.
  intros H Hs. apply reach_finv in H as (HM & _). unfold MInv in HM. rewrite Hs in HM. apply HM.
Qed.

Lemma black_hole_threshold m now m' :
  step m (OBlackHole now) = Some (m', 1) ->
  BHT < Z.of_nat (length (bursts (finish_loss_burst BHT (bhd m)))).
Proof.
  cbn [Mtud.step]. unfold bhd_black_hole_detected.
  destruct (Z.of_nat (length (bursts (finish_loss_burst BHT (bhd m)))) <=? BHT) eqn:E.
  - intros H. inversion H.
  - intros _. lia.
Qed.

End Proofs.

(** Runs from scratch, for the witnesses in Props/C13.v. *)
Definition cur_after (MPR BHT : Z) (fx : bool) (ops : list Op) : option Z :=
  match fold_left (fun acc op => match acc with
                                 | Some m => match Mtud.step MPR BHT fx m op with Some (m', _) => Some m' | None => None end
                                 | None => None end) ops (Some dummy) with
  | Some m => Some (cur m)
  | None => None
  end.

(** F8 on the code BEFORE the repair ([F8FIXED = false]): large packets are lost before the peer's
    smaller limit arrives; the black-hole fallback then RAISES the estimate from 1200 to
    min_mtu = 1300, above the peer's max_udp_payload_size = 1200, without any probe. *)
Definition f8_witness : list Op :=
  [ONew 1400 1300 None true (mkConfig 1452 600000000 60000000 20);
   ONonProbeLost 0 1400; ONonProbeLost 2 1400; ONonProbeLost 4 1400; ONonProbeLost 6 1400;
   OPeerMax 1200].

(** The return values of a run (for the [minimum_change] witnesses). *)
Definition polls_of (MPR BHT : Z) (ops : list Op) : list Z :=
  snd (fold_left (fun acc op => match fst acc with
                                | Some m => match Mtud.step MPR BHT true m op with
                                            | Some (m', r) => (Some m', snd acc ++ [r])
                                            | None => (None, snd acc) end
                                | None => acc end) ops (Some dummy, [])).
