(** Totality with bounds of the frame decoder (Model/Frames.v): every reader returns a value and
    a suffix of its input, or one of the three [IterErr]s; never [DPanic], never out of fuel. *)
From QV Require Import Lib.Tac Lib.Bytes Lib.Corr Model.Varint Model.Frames
  Proofs.BytesProofs Proofs.VarintProofs Proofs.FramesProofs.
Open Scope Z_scope.

Definition v62 (v : Z) : Prop := 0 <= v < 2 ^ 62.

Lemma get_var_cases bs :
  all_bytes bs = true ->
  (exists v G r, bs = G ++ r /\ v62 v /\ (1 <= length G <= 8)%nat /\
                 (forall x, get_var (G ++ x) = DOk v x) /\ all_bytes r = true)
  \/ get_var bs = DErr E_END.
Proof.
  intros Hb. unfold get_var. destruct (Varint.decode bs) as [[v r]|] eqn:E; [left|now right].
  destruct (decode_inv _ _ _ E) as (G & -> & Hl & HG).
  exists v, G, r. split; [reflexivity|]. split; [exact (decode_range _ _ _ Hb E)|].
  split; [exact Hl|]. split; [|now apply all_bytes_app in Hb].
  intros x. now rewrite HG.
Qed.

Lemma bind_ok_inv {A B} (p : dres A) (k : A -> list Z -> dres B) b r :
  bind p k = DOk b r -> exists a r1, p = DOk a r1 /\ k a r1 = DOk b r.
Proof. destruct p as [a r1|e|]; cbn [bind]; intros H; try discriminate. now exists a, r1. Qed.

Lemma bind_get_var_inv {B} bs (k : Z -> list Z -> dres B) b r :
  all_bytes bs = true -> bind (get_var bs) k = DOk b r ->
  exists v G r1, bs = G ++ r1 /\ v62 v /\ (1 <= length G <= 8)%nat /\
                 (forall x, get_var (G ++ x) = DOk v x) /\ all_bytes r1 = true /\
                 k v r1 = DOk b r.
Proof.
  intros Hb H. destruct (get_var_cases bs Hb) as [(v & G & r1 & -> & Hv & Hl & HG & Hb1)|E].
  - rewrite HG in H. now exists v, G, r1.
  - rewrite E in H. discriminate.
Qed.

(** The varint at the head fails with [E_END] (an [is_err]), or [pat] names what it gives. *)
Tactic Notation "get_var_step" constr(Hb) "as" simple_intropattern(pat) :=
  destruct (get_var_cases _ Hb) as [pat| ->]; cbn [bind]; [|left; reflexivity].

Definition specP {A} (p : list Z -> dres A) (Q : A -> Prop) : Prop :=
  forall bs, all_bytes bs = true ->
    match p bs with
    | DOk a r => Q a /\ exists pre, bs = pre ++ r
    | DErr e => is_err e
    | DPanic => False
    end.

(** The value may depend on what is left ([body_ack] measures the blocks it has scanned). *)
Lemma specP_ret {A} (f : list Z -> A) (Q : A -> Prop) :
  (forall r, Q (f r)) -> specP (fun r => DOk (f r) r) Q.
Proof. intros HQ bs _. split; [apply HQ|]. now exists []. Qed.

Lemma specP_rest : specP (fun r => DOk r []) (fun _ => True).
Proof. intros bs _. split; [exact I|]. exists bs. now rewrite app_nil_r. Qed.

Lemma specP_err {A} e (Q : A -> Prop) : is_err e -> specP (fun _ => DErr e) Q.
Proof. intros He bs _. exact He. Qed.

(** The continuation may also look at the input of the first reader ([body_ack] does). *)
Lemma specP_bind {A B} (p : list Z -> dres A) (k : list Z -> A -> list Z -> dres B) Q Q' :
  specP p Q -> (forall bs a, Q a -> specP (k bs a) Q') -> specP (fun bs => bind (p bs) (k bs)) Q'.
Proof.
  intros Hp Hk bs Hb. specialize (Hp bs Hb). destruct (p bs) as [a r|e|]; cbn [bind]; auto.
  destruct Hp as (HQ & pre & Hpre). pose proof Hb as Hr. rewrite Hpre in Hr.
  apply all_bytes_app in Hr as [_ Hr].
  specialize (Hk bs a HQ r Hr). destruct (k bs a r) as [b r'|e|]; auto.
  destruct Hk as (HQ' & pre' & ->). split; [exact HQ'|]. exists (pre ++ pre').
  now rewrite <- app_assoc.
Qed.

Lemma get_var_spec : specP get_var v62.
Proof.
  intros bs Hb. destruct (get_var_cases bs Hb) as [(v & G & r & -> & Hv & _ & HG & _)| ->].
  - rewrite HG. split; [exact Hv|]. now exists G.
  - left; reflexivity.
Qed.

Lemma get_u8_spec : specP get_u8 (fun _ => True).
Proof.
  intros [|b r] Hb; cbn [get_u8]; [left; reflexivity|]. split; [exact I|]. now exists [b].
Qed.

Lemma get_n_spec n : specP (get_n n) (fun _ => True).
Proof.
  intros bs Hb. unfold get_n. destruct (Nat.ltb (length bs) n); [left; reflexivity|].
  split; [exact I|]. exists (firstn n bs). now rewrite firstn_skipn.
Qed.

Lemma get_u64_spec : specP get_u64 (fun _ => True).
Proof.
  unfold get_u64. apply (specP_bind _ (fun _ b r => DOk (be_val b 0) r) _ _ (get_n_spec 8)).
  intros _ a _. now apply (specP_ret (fun _ => be_val a 0)).
Qed.

Lemma take_len_spec : specP take_len (fun _ => True).
Proof.
  unfold take_len.
  apply (specP_bind _ (fun _ len r => if zlen r <? len then DErr E_END else _) _ _ get_var_spec).
  intros _ len _ bs Hb. destruct (zlen bs <? len); [left; reflexivity|].
  split; [exact I|]. exists (firstn (Z.to_nat len) bs). now rewrite firstn_skipn.
Qed.

Lemma scan_loop_spec fuel : forall n smallest bs,
  (length bs < fuel)%nat -> all_bytes bs = true ->
  match scan_loop fuel n smallest bs with
  | DOk _ r => exists pre, bs = pre ++ r
  | DErr e => is_err e
  | DPanic => False
  end.
Proof.
  induction fuel as [|k IH]; intros n smallest bs Hf Hb; [lia|].
  cbn [scan_loop]. destruct (n <=? 0); [now exists []|].
  get_var_step Hb as (gap & G & r1 & -> & Hg & HlG & -> & Hb1).
  unfold v62 in Hg. rewrite u64_add_some by lia.
  destruct (u64_sub smallest (gap + 2)) as [s1|]; [|right; right; reflexivity].
  get_var_step Hb1 as (block & B & r2 & -> & _ & HlB & -> & Hb2).
  destruct (u64_sub s1 block) as [s2|]; [|right; right; reflexivity].
  rewrite !app_length in Hf. specialize (IH (n - 1) s2 r2 ltac:(lia) Hb2).
  destruct (scan_loop k (n - 1) s2 r2); auto.
  destruct IH as (pre & ->). exists (G ++ B ++ pre). now rewrite <- !app_assoc.
Qed.

Lemma scan_ack_blocks_spec largest n :
  specP (fun bs => scan_ack_blocks bs largest n) (fun _ => True).
Proof.
  intros bs Hb. unfold scan_ack_blocks.
  get_var_step Hb as (first & G & r1 & -> & _ & _ & -> & Hb1).
  destruct (u64_sub largest first) as [s|]; [|right; right; reflexivity].
  pose proof (scan_loop_spec (S (length r1)) n s r1 ltac:(lia) Hb1) as H.
  destruct (scan_loop (S (length r1)) n s r1); auto.
  destruct H as (pre & ->). split; [exact I|]. exists (G ++ pre). now rewrite <- app_assoc.
Qed.

(** One reader of a body: a result, an error, or a primitive reader followed by the rest. *)
Ltac spec_step :=
  first
    [ apply specP_ret; intros _; exact I
    | exact specP_rest
    | apply specP_err; (left; reflexivity) || (right; left; reflexivity) || (right; right; reflexivity)
    | eapply specP_bind;
      [ first [ apply get_var_spec | apply take_len_spec | apply get_u8_spec | apply get_n_spec
              | apply get_u64_spec | apply scan_ack_blocks_spec
              | exact (specP_ret _ (fun _ => True) (fun _ => I)) | exact specP_rest ]
      | intros ? ? ? ] ].

Lemma frame_body_spec ty : specP (frame_body ty) (fun _ => True).
Proof.
  unfold frame_body.
  repeat match goal with
         | |- specP (fun r => if ?c then @?a r else @?b r) _ => destruct c
         end;
    try (apply specP_ret; intros _; exact I);
    try (apply specP_err; right; left; reflexivity).
  (* bodies that are a plain sequence of primitive readers *)
  all: try (unfold body_reset, body_stop, body_crypto, body_new_token, body_var1, body_var2,
              body_u64, body_close_conn, body_close_app, body_ack_freq; repeat spec_step; fail).
  - unfold body_ack. do 4 spec_step. destruct (ty =? 3); repeat spec_step.
  - unfold body_stream. destruct (bit ty 4), (bit ty 2); repeat spec_step.
  - unfold body_new_cid. do 2 spec_step. destruct (_ <? _); repeat spec_step.
    destruct (_ || _); repeat spec_step.
  - unfold body_datagram. destruct (bit ty 1); repeat spec_step.
Qed.

Lemma try_next_total bs :
  all_bytes bs = true ->
  match try_next bs with
  | DOk f r => exists pre, bs = pre ++ r /\ (1 <= length pre)%nat
  | DErr e => is_err e
  | DPanic => False
  end.
Proof.
  intros Hb. unfold try_next.
  get_var_step Hb as (ty & G & r1 & -> & _ & HlG & -> & Hb1).
  pose proof (frame_body_spec ty r1 Hb1) as H.
  destruct (frame_body ty r1); auto.
  destruct H as (_ & pre & ->). exists (G ++ pre). rewrite <- app_assoc, app_length.
  split; [reflexivity|lia].
Qed.
