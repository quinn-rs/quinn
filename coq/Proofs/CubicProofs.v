(** Cubic never reports a window below two datagrams — for all call histories, all arguments and
    ALL outcomes of the float computations (every oracle value). *)
From QV Require Import Lib.Tac Lib.Chk Lib.Corr Proofs.ChkProofs Proofs.RunInduction Model.Cubic.
Open Scope Z_scope.

Definition inv (s : st) : Prop := 0 <= mtu s /\ 2 * mtu s <= window (cur s).

Lemma build_inv w m : 0 <= m -> 2 * m <= w -> inv (build w m).
Proof. intros Hm Hw. unfold build. split; cbn [mtu cur window]; lia. Qed.

Lemma on_ack_inv s now sent bytes al o1 :
  inv s -> 0 <= bytes ->
  match on_ack s now sent bytes al o1 with Some s' => inv s' | None => True end.
Proof.
  intros [Hm Hw] Hb. unfold on_ack, obind.
  destruct (nz al || in_recovery (cur s) sent); [split; assumption|].
  destruct (window (cur s) <? ssthresh (cur s)).
  - destruct (cadd (window (cur s)) bytes) as [w|] eqn:Ew; [|exact I]. apply cadd_some in Ew as [-> _].
    split; cbn [mtu cur window]; lia.
  - destruct (nz o1); [|split; cbn [mtu cur window]; lia].
    destruct (cadd (window (cur s)) (mtu s)) as [w|] eqn:Ew; [|exact I]. apply cadd_some in Ew as [-> _].
    split; cbn [mtu cur window]; lia.
Qed.

Lemma on_congestion_event_inv s now sent p e o1 o2 :
  inv s -> inv (on_congestion_event s now sent p e o1 o2).
Proof.
  intros [Hm Hw]. unfold on_congestion_event, min_window.
  destruct (in_recovery (cur s) sent); [split; assumption|].
  destruct (nz p); split; cbn [mtu cur window]; lia.
Qed.

Lemma on_spurious_inv s : inv s -> inv (on_spurious s).
Proof.
  intros [Hm Hw]. unfold on_spurious. destruct (prior s) as [p|]; [|split; assumption].
  destruct (window (cur s) <? window p) eqn:E; split; cbn [mtu cur window]; lia.
Qed.

Lemma on_mtu_update_inv s m : 0 <= m -> inv (on_mtu_update s m).
Proof. intro Hm. unfold on_mtu_update, min_window. split; cbn [mtu cur window]; lia. Qed.

Lemma step_inv s op o1 o2 :
  wf_op op -> inv s -> match step s op o1 o2 with Some s' => inv s' | None => True end.
Proof.
  intros Hwf Hi. unfold step. destruct op as [|c a]; [exact Hi|]. apply wf_tail in Hwf.
  destruct (c =? 2); [apply on_ack_inv; [exact Hi|apply nth_nonneg, Hwf]|].
  destruct (c =? 4); [apply on_congestion_event_inv, Hi|].
  destruct (c =? 5); [apply on_spurious_inv, Hi|].
  destruct (c =? 6); [apply on_mtu_update_inv, nth_nonneg, Hwf|exact Hi].
Qed.

Lemma steps_cons s x l :
  steps s (x :: l) =
  match step s (fst x) (fst (snd x)) (snd (snd x)) with Some s' => steps s' l | None => None end.
Proof. destruct x as [op [o1 o2]]; reflexivity. Qed.

Theorem cubic_floor : forall w m l s',
  0 <= m -> 2 * m <= w ->
  Forall (fun p => wf_op (fst p)) l ->
  steps (build w m) l = Some s' ->
  2 * mtu s' <= window (cur s').
Proof.
  intros w m l s' Hm Hw Hwf H.
  exact (proj2 (run_invariant _ (fun s => s) steps (fun s => eq_refl) steps_cons _ inv
                  (fun s x => step_inv s (fst x) (fst (snd x)) (snd (snd x)))
                  l _ s' Hwf (build_inv w m Hm Hw) H)).
Qed.
