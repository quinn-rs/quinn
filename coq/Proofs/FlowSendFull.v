(** C05, second part: [HInv] (per stream, acknowledged, lost and in-flight ranges partition
    [base, unsent); [unacked_data] is their sum) and [SInv] ([send_streams] accounting) hold of every
    reachable state ([reachable_full]).  No theorem here assembles the absence of every panic. *)
From QV Require Import Lib.Tac Lib.Corr Model.FlowSend Proofs.FlowSendAcc Proofs.FlowRangeSet
  Proofs.FlowSendProofs Proofs.RunInduction.
Open Scope Z_scope.

Definition live (L : list (option Frame)) (k : nat) (f : Frame) : Prop :=
  nth_error L k = Some (Some f).

Definition fcontrib (id : Z) (e : option Frame) : Z :=
  match e with
  | Some (i, a, b, _) => if i =? id then b - a else 0
  | None => 0
  end.

Fixpoint flen (id : Z) (L : list (option Frame)) : Z :=
  match L with [] => 0 | e :: t => fcontrib id e + flen id t end.

Lemma log_get_spec : forall k L f L',
  log_get k L = Some (f, L') ->
  live L k f
  /\ (forall j f', live L' j f' <-> live L j f' /\ j <> k)
  /\ (forall id, flen id L' = flen id L - fcontrib id (Some f)).
Proof.
  induction k as [|k IH]; intros L f L' G; destruct L as [|e t]; cbn [log_get] in G; try discriminate.
  - destruct e as [f0|]; [|discriminate]. injection G as <- <-.
    split; [reflexivity|]. split.
    + intros j f'. unfold live. destruct j as [|j]; cbn [nth_error].
      * split; [discriminate|]. intros [_ H]. congruence.
      * split; [intros H; split; [exact H|discriminate]|intros [H _]; exact H].
    + intros id. cbn [flen fcontrib]. lia.
  - destruct (log_get k t) as [[f1 t1]|] eqn:G1; [|destruct e; discriminate].
    assert (E : (f, L') = (f1, e :: t1)) by (destruct e; injection G as <- <-; reflexivity).
    injection E as -> ->.
    destruct (IH _ _ _ G1) as (A & B & C). split; [exact A|]. split.
    + intros j f'. unfold live in *. destruct j as [|j]; cbn [nth_error].
      * split; [intros H; split; [exact H|discriminate]|intros [H _]; exact H].
      * rewrite (B j f'). split; intros [H1 H2]; split; auto.
    + intros id. cbn [flen]. rewrite C. lia.
Qed.

Lemma live_take k L f L' j f' : log_get k L = Some (f, L') -> live L' j f' -> live L j f'.
Proof. intros G Hl. destruct (log_get_spec _ _ _ _ G) as (_ & B & _). apply B in Hl. apply Hl. Qed.

Lemma log_get_none_dead k L : log_get k L = None -> forall f, ~ live L k f.
Proof.
  revert L. induction k as [|k IH]; intros L G f Hl; destruct L as [|e t]; unfold live in Hl; cbn in *;
    try discriminate.
  - destruct e; [discriminate|]. discriminate.
  - destruct (log_get k t) as [[f1 t1]|] eqn:G1; [destruct e; discriminate|].
    eapply IH; eauto.
Qed.

Lemma live_snoc L f k f' :
  live (L ++ [Some f]) k f' <-> live L k f' \/ (k = length L /\ f' = f).
Proof.
  unfold live. destruct (Nat.lt_ge_cases k (length L)) as [H|H].
  - rewrite nth_error_app1 by exact H. split; [auto|]. intros [H1|[H1 _]]; [exact H1|lia].
  - rewrite nth_error_app2 by exact H. split.
    + intros H1. right. destruct (k - length L)%nat eqn:E; cbn in H1.
      * injection H1 as <-. split; [lia|reflexivity].
      * destruct n; discriminate.
    + intros [H1|[H1 ->]].
      * apply nth_error_None in H. congruence.
      * subst k. rewrite Nat.sub_diag. reflexivity.
Qed.

Lemma flen_snoc id L e : flen id (L ++ [e]) = flen id L + fcontrib id e.
Proof. induction L as [|a t IH]; cbn [app flen]; lia. Qed.

Lemma live_dead L k f : ~ live (map (fun _ : option Frame => None) L) k f.
Proof.
  unfold live. revert k. induction L as [|a t IH]; intros k; destruct k; cbn; try discriminate.
  apply IH.
Qed.

Lemma flen_none id L : (forall k a b fin, ~ live L k (id, a, b, fin)) -> flen id L = 0.
Proof.
  induction L as [|e t IH]; intros Hn; [reflexivity|]. cbn [flen].
  rewrite IH by (intros k a b fin Hl; apply (Hn (S k) a b fin); exact Hl).
  destruct e as [[[[i a] b] fin]|]; cbn [fcontrib]; [|lia].
  destruct (Z.eqb_spec i id) as [->|Ne]; [|lia]. destruct (Hn O a b fin). reflexivity.
Qed.

Lemma flen_nonneg id L :
  (forall k a b fin, live L k (id, a, b, fin) -> a <= b) -> 0 <= flen id L.
Proof.
  induction L as [|e t IH]; intros H; cbn [flen]; [lia|].
  assert (0 <= flen id t).
  { apply IH. intros k a b fin Hl. apply (H (S k) a b fin). exact Hl. }
  destruct e as [[[[i a] b] fin]|]; cbn [fcontrib]; [|lia].
  destruct (Z.eqb_spec i id) as [->|Ne]; [|lia]. specialize (H O a b fin eq_refl). lia.
Qed.

Fixpoint msum (f : option Send -> Z) (m : SMap) : Z :=
  match m with [] => 0 | (_, v) :: t => f v + msum f t end.

Lemma msum_update f id v m :
  msum f (update id v m) =
  match lookup id m with Some old => msum f m - f old + f v | None => msum f m end.
Proof.
  induction m as [|[a w] t IH]; cbn [update lookup msum]; [reflexivity|].
  destruct (a =? id) eqn:Ea; cbn [msum]; [lia|]. rewrite IH. destruct (lookup id t); lia.
Qed.

Lemma msum_remove f id m :
  msum f (remove id m) = match lookup id m with Some old => msum f m - f old | None => msum f m end.
Proof.
  induction m as [|[a w] t IH]; cbn [remove lookup msum]; [reflexivity|].
  destruct (a =? id) eqn:Ea; cbn [msum]; [lia|]. rewrite IH. destruct (lookup id t); lia.
Qed.

Lemma msum_insert f id v m : msum f (insert id v m) = msum f m + f v.
Proof.
  induction m as [|[a w] t IH]; cbn [insert msum]; [lia|].
  destruct (id <? a); cbn [msum]; lia.
Qed.

Lemma msum_zero f m : (forall k v, In (k, v) m -> f v = 0) -> msum f m = 0.
Proof.
  induction m as [|[k v] t IH]; intros H; cbn [msum]; [reflexivity|].
  rewrite (H k v) by (left; reflexivity). rewrite IH; [reflexivity|].
  intros k' v' Hin. apply (H k'). right. exact Hin.
Qed.

(** Unacknowledged bytes of one stream (reset streams were settled at reset time). *)
Definition ucontrib (v : option Send) : Z :=
  match v with
  | Some x => if x.(s_state) =? 3 then 0 else x.(s_ulen) - rs_total x.(s_acks)
  | None => 0
  end.
Definition usum (m : SMap) : Z := msum ucontrib m.

Definition base (x : Send) : Z := x.(s_offset) - x.(s_ulen).

(** For a stream that was not reset: acknowledged ranges, ranges queued for retransmission and
    frames in flight are pairwise disjoint pieces of [base, unsent) whose lengths add up to it. *)
Record LiveOK (L : list (option Frame)) (id : Z) (x : Send) : Prop := mkLiveOK {
  l_acksW : W (base x + 1) x.(s_acks);
  l_acks_hi : forall y, covers x.(s_acks) y -> y < x.(s_unsent);
  l_retxW : W (base x) x.(s_retx);
  l_retx_hi : forall y, covers x.(s_retx) y -> y < x.(s_unsent);
  l_lo : forall k a b fin, live L k (id, a, b, fin) -> a < b -> base x <= a;
  l_ar : forall y, covers x.(s_acks) y -> covers x.(s_retx) y -> False;
  l_fa : forall k a b fin y, live L k (id, a, b, fin) -> a <= y < b -> covers x.(s_acks) y -> False;
  l_fr : forall k a b fin y, live L k (id, a, b, fin) -> a <= y < b -> covers x.(s_retx) y -> False;
  l_ff : forall k k' a b fin a' b' fin' y,
           live L k (id, a, b, fin) -> live L k' (id, a', b', fin') -> k <> k' ->
           a <= y < b -> a' <= y < b' -> False;
  l_num : flen id L + rs_total x.(s_acks) + rs_total x.(s_retx) = x.(s_unsent) - base x
}.

Record BufOK (L : list (option Frame)) (id : Z) (x : Send) : Prop := mkBufOK {
  b_ulen : 0 <= x.(s_ulen) <= x.(s_offset);
  b_unsent : base x <= x.(s_unsent) <= x.(s_offset);
  b_state : 0 <= x.(s_state) <= 3;
  b_frames : forall k a b fin, live L k (id, a, b, fin) -> 0 <= a <= b /\ b <= x.(s_unsent);
  b_live : x.(s_state) <> 3 -> LiveOK L id x
}.

(** [L] is not [s.(log)]: [do_log] takes the frame out before the operation runs, and
    [write_stream_frames] appends its frames at the end. *)
Record HInvL (L : list (option Frame)) (s : State) (g : Ghost) : Prop := mkHInv {
  h_buf : forall id x, lookup id s.(send) = Some (Some x) -> BufOK L id x;
  h_frames : forall k id a b fin, live L k (id, a, b, fin) ->
               0 <= id /\ lookup id s.(send) <> Some None
               /\ (id_init id = s.(side) -> id_index id < get_next (id_dir id) s);
  h_usum : s.(unacked_data) = usum s.(send);
  h_early : g.(g_phase) <> 2 ->
            forall id x, lookup id s.(send) = Some (Some x) ->
              x.(s_acks) = [] /\ x.(s_retx) = [] /\ x.(s_ulen) = x.(s_offset)
}.

Definition HInv (s : State) (g : Ghost) : Prop := HInvL s.(log) s g.

(** [send_streams] counts at least the streams of the map that the application holds:
    the locally opened ones and the peer-initiated bidirectional ones that were accepted. *)
Definition counted (s : State) (k : Z) : bool :=
  (id_init k =? s.(side)) || ((id_dir k =? 0) && (id_index k <? s.(next_reported_bi))).
Definition cnt (s : State) : Z := Z.of_nat (length (filter (counted s) (keys s.(send)))).

Record SInv (s : State) (g : Ghost) : Prop := mkSInv {
  c_cnt : cnt s <= s.(send_streams);
  c_rep : 0 <= s.(next_reported_bi);
  c_rbi : forall k, In k (keys s.(send)) -> id_init k <> s.(side) -> id_dir k = 0;
  c_app : forall id x, lookup id s.(send) = Some (Some x) -> id_init id <> s.(side) ->
            x.(s_state) <> 0 -> id_index id < s.(next_reported_bi);
  c_early : g.(g_phase) <> 2 -> s.(next_reported_bi) = 0
}.

Definition hcore (s : State) := (s.(side), s.(send), s.(unacked_data), s.(next_bi), s.(next_uni)).

Lemma HInvL_ext L s s' g : hcore s = hcore s' -> HInvL L s g -> HInvL L s' g.
Proof.
  unfold hcore. intros H. injection H as H1 H2 H3 H4 H5. intros [A B C D].
  constructor; unfold get_next in *; rewrite <- ?H1, <- ?H2, <- ?H3, <- ?H4, <- ?H5; auto.
Qed.

(** Both invariants read the ghost only through [g_phase g <> 2]. *)
Lemma hinv_ghost L s g g' : (g_phase g' <> 2 -> g_phase g <> 2) -> HInvL L s g -> HInvL L s g'.
Proof. intros Hp [A B C D]. constructor; auto. intros Hq. exact (D (Hp Hq)). Qed.

Lemma sinv_ghost s g g' : (g_phase g' <> 2 -> g_phase g <> 2) -> SInv s g -> SInv s g'.
Proof. intros Hp [A B C D E]. constructor; auto. Qed.

Lemma hinv_phase2 L s g :
  HInvL L s g -> HInvL L s (mkGhost 2 g.(g_par) g.(g_md) g.(g_msd) g.(g_ms) g.(g_closed)).
Proof. apply hinv_ghost. intros Hc. destruct (Hc eq_refl). Qed.

Lemma sinv_phase2 s g : SInv s g -> SInv s (mkGhost 2 g.(g_par) g.(g_md) g.(g_msd) g.(g_ms) g.(g_closed)).
Proof. apply sinv_ghost. intros Hc. destruct (Hc eq_refl). Qed.

(** All that [SInv] needs to pass from [s] to [s']. *)
Definition kq (s s' : State) : Prop :=
  side s' = side s /\ keys (send s') = keys (send s)
  /\ next_reported_bi s' = next_reported_bi s /\ send_streams s' = send_streams s
  /\ forall id y, lookup id (send s') = Some (Some y) -> s_state y <> 0 ->
       exists x, lookup id (send s) = Some (Some x) /\ s_state x <> 0.

Lemma kq_refl s : kq s s.
Proof. repeat split; auto. intros id y L H. exists y. auto. Qed.

Lemma kq_trans a b c : kq a b -> kq b c -> kq a c.
Proof.
  intros (A1 & A2 & A3 & A4 & A5) (B1 & B2 & B3 & B4 & B5). repeat split; try congruence.
  intros id y L H. destruct (B5 id y L H) as (x & Lx & Hx). apply (A5 id x Lx Hx).
Qed.

Lemma sinv_kq s s' g : SInv s g -> kq s s' -> SInv s' g.
Proof.
  intros [A B C D E] (K1 & K2 & K3 & K4 & K5).
  constructor; unfold cnt, counted in *; rewrite ?K1, ?K2, ?K3, ?K4; auto.
  intros id y L Hr Hs. destruct (K5 id y L Hs) as (x & Lx & Hx). eapply D; eauto.
Qed.

Definition kcore (s : State) := (s.(side), s.(send), s.(next_reported_bi), s.(send_streams)).

Lemma kq_core s s' : kcore s = kcore s' -> kq s s'.
Proof.
  unfold kcore. intros H. injection H as H1 H2 H3 H4. unfold kq. rewrite <- H1, <- H2, <- H3, <- H4.
  apply kq_refl.
Qed.

Lemma SInv_ext s s' g : kcore s = kcore s' -> SInv s g -> SInv s' g.
Proof. intros H I. eapply sinv_kq; [exact I|apply kq_core; exact H]. Qed.

(** Everything the two invariants read. *)
Definition fcore (s : State) := (hcore s, kcore s, s.(log)).

Lemma fcore_eq s s' : fcore s' = fcore s -> hcore s = hcore s' /\ kcore s = kcore s' /\ log s' = log s.
Proof. unfold fcore. intros H. repeat split; congruence. Qed.

Ltac unfold_views ::= unfold core, fcore, hcore, kcore.

Definition feq (id : Z) (L L' : list (option Frame)) : Prop :=
  (forall k a b fin, live L' k (id, a, b, fin) <-> live L k (id, a, b, fin))
  /\ flen id L' = flen id L.

Lemma feq_refl id L : feq id L L.
Proof. split; [tauto|reflexivity]. Qed.

Lemma liveok_feq id L L' x : feq id L L' -> LiveOK L id x -> LiveOK L' id x.
Proof.
  intros (E & F) [A1 A2 A3 A4 A5 A6 A7 A8 A9 A10].
  constructor; auto.
  - intros k a b fin Hl. apply (A5 k a b fin). apply E. exact Hl.
  - intros k a b fin y Hl. apply (A7 k a b fin y). apply E. exact Hl.
  - intros k a b fin y Hl. apply (A8 k a b fin y). apply E. exact Hl.
  - intros k k' a b fin a' b' fin' y H1 H2. apply (A9 k k' a b fin a' b' fin' y); apply E; assumption.
  - rewrite F. exact A10.
Qed.

Lemma bufok_feq id L L' x : feq id L L' -> BufOK L id x -> BufOK L' id x.
Proof.
  intros E [A B C D F]. constructor; auto.
  - intros k a b fin Hl. apply (D k a b fin). apply (proj1 E). exact Hl.
  - intros Hs. eapply liveok_feq; eauto.
Qed.

Lemma feq_snoc_other id L fid a b fin : fid <> id -> feq id L (L ++ [Some (fid, a, b, fin)]).
Proof.
  intros Hn. split.
  - intros k a' b' fin'. rewrite live_snoc. split; [|auto].
    intros [H|[_ H]]; [exact H|]. injection H as H _ _ _. congruence.
  - rewrite flen_snoc. cbn [fcontrib]. destruct (fid =? id) eqn:E; lia.
Qed.

Lemma feq_take_other id L L' k fid a b fin :
  log_get k L = Some ((fid, a, b, fin), L') -> fid <> id -> feq id L L'.
Proof.
  intros G Hn. destruct (log_get_spec _ _ _ _ G) as (Hl & B & C). split.
  - intros j a' b' fin'. rewrite B. split; [intros [H _]; exact H|].
    intros H. split; [exact H|]. intros ->. unfold live in *. congruence.
  - rewrite C. cbn [fcontrib]. destruct (fid =? id) eqn:E; lia.
Qed.

Definition KeyOK (s : State) (id : Z) : Prop :=
  0 <= id /\ (id_init id = s.(side) -> id_index id < get_next (id_dir id) s).

Definition early_entry (y : Send) : Prop :=
  y.(s_acks) = [] /\ y.(s_retx) = [] /\ y.(s_ulen) = y.(s_offset).

Lemma usum_put id old x' s :
  lookup id s.(send) = Some old ->
  usum (send (put id x' s)) = usum s.(send) - ucontrib old + ucontrib (Some x').
Proof.
  intros L. unfold put, usum. st_goal. rewrite msum_update, L. reflexivity.
Qed.

(** [du]: the change of the stream's unacknowledged bytes. *)
Lemma hinv_relog L L' s g id old y du :
  HInvL L s g -> lookup id s.(send) = Some old ->
  (forall i, i <> id -> feq i L L') ->
  (forall k i a b fin, live L' k (i, a, b, fin) -> live L k (i, a, b, fin) \/ i = id /\ KeyOK s id) ->
  BufOK L' id y -> ucontrib (Some y) = ucontrib old + du ->
  (g.(g_phase) <> 2 -> early_entry y) ->
  HInvL L' (set_unacked_data (s.(unacked_data) + du) (put id y s)) g.
Proof.
  intros [A B C D] Lk Hfe Hsub Hb Hu He. constructor.
  - intros k z Lz. st_in Lz. rewrite lookup_put in Lz.
    destruct (Z.eqb_spec k id) as [->|Ne].
    + rewrite Lk in Lz. injection Lz as <-. exact Hb.
    + eapply bufok_feq; [apply Hfe; exact Ne|]. apply A. exact Lz.
  - intros k i a b fin Hl. st_goal. rewrite lookup_put.
    unfold get_next, put. st_goal. fold (get_next (id_dir i) s).
    destruct (Hsub _ _ _ _ _ Hl) as [Hl0|(-> & K1 & K2)].
    + destruct (B k i a b fin Hl0) as (B1 & B2 & B3). split; [exact B1|]. split; [|exact B3].
      destruct (i =? id); [rewrite Lk; discriminate|exact B2].
    + rewrite Z.eqb_refl, Lk. split; [exact K1|]. split; [discriminate|exact K2].
  - st_goal. rewrite (usum_put id old y s Lk). lia.
  - intros Hp k z Lz. st_in Lz. rewrite lookup_put in Lz.
    destruct (k =? id) eqn:E.
    + rewrite Lk in Lz. injection Lz as <-. apply He. exact Hp.
    + apply (D Hp k). exact Lz.
Qed.

Lemma hcore_put0 id y s : hcore (set_unacked_data (unacked_data s + 0) (put id y s)) = hcore (put id y s).
Proof. unfold hcore, put. st_goal. rewrite Z.add_0_r. reflexivity. Qed.

Lemma hinv_put L s g id old x' du :
  HInvL L s g -> lookup id s.(send) = Some old -> BufOK L id x' ->
  ucontrib (Some x') = ucontrib old + du -> (g.(g_phase) <> 2 -> early_entry x') ->
  HInvL L (set_unacked_data (s.(unacked_data) + du) (put id x' s)) g.
Proof.
  intros H Lk. apply (hinv_relog L L s g id old x' du H Lk); [intros; apply feq_refl|auto].
Qed.

Definition buf_eq (x y : Send) : Prop :=
  y.(s_offset) = x.(s_offset) /\ y.(s_ulen) = x.(s_ulen) /\ y.(s_unsent) = x.(s_unsent)
  /\ y.(s_acks) = x.(s_acks) /\ y.(s_retx) = x.(s_retx).

Lemma bufok_eq L id x y :
  buf_eq x y -> 0 <= y.(s_state) <= 3 -> (y.(s_state) <> 3 -> x.(s_state) <> 3) ->
  BufOK L id x -> BufOK L id y.
Proof.
  intros (E1 & E2 & E3 & E4 & E5) Hr Hs [A B C D F].
  constructor; unfold base in *; rewrite ?E1, ?E2, ?E3; auto.
  intros Hy. destruct (F (Hs Hy)) as [A1 A2 A3 A4 A5 A6 A7 A8 A9 A10].
  constructor; unfold base in *; rewrite ?E1, ?E2, ?E3, ?E4, ?E5; auto.
Qed.

Definition same_buf (x y : Send) : Prop :=
  y.(s_offset) = x.(s_offset) /\ y.(s_ulen) = x.(s_ulen) /\ y.(s_unsent) = x.(s_unsent)
  /\ y.(s_acks) = x.(s_acks) /\ y.(s_retx) = x.(s_retx) /\ y.(s_state) = x.(s_state).

Lemma bufok_same L id x y : same_buf x y -> BufOK L id x -> BufOK L id y.
Proof.
  intros (E1 & E2 & E3 & E4 & E5 & E6) Hb. pose proof (b_state _ _ _ Hb).
  apply (bufok_eq L id x y); [repeat split; assumption|lia|lia|exact Hb].
Qed.

Lemma bufok_idle L id y :
  (forall k a b fin, ~ live L k (id, a, b, fin)) ->
  y.(s_acks) = [] -> y.(s_retx) = [] -> y.(s_unsent) = base y ->
  0 <= y.(s_ulen) <= y.(s_offset) -> 0 <= y.(s_state) <= 3 -> BufOK L id y.
Proof.
  intros Hn Ea Er Eu Hu Hs. unfold base in *.
  constructor; unfold base; try lia.
  - intros k a b fin Hl. destruct (Hn _ _ _ _ Hl).
  - intros _. constructor; unfold base; rewrite ?Ea, ?Er; cbn [W rs_total];
      try exact I; try (intros y0 Hc; destruct (covers_nil _ Hc));
      try (intros *; intros Hl; destruct (Hn _ _ _ _ Hl)).
    rewrite (flen_none id L Hn). lia.
Qed.

Lemma touch_lookup id s x s1 :
  touch id s = Some (x, s1) -> lookup id (send s1) = Some (Some x) /\ log s1 = log s.
Proof.
  intros T. destruct (touch_spec _ _ _ _ T) as [(Lk & ->)|(Lk & -> & ->)]; [auto|].
  split; [|reflexivity]. rewrite lookup_put, Z.eqb_refl, Lk. reflexivity.
Qed.

Lemma touch_hinv L s g id x s1 : HInvL L s g -> touch id s = Some (x, s1) -> HInvL L s1 g.
Proof.
  intros H T. destruct (touch_spec _ _ _ _ T) as [(Lk & ->)|(Lk & -> & ->)]; [exact H|].
  eapply HInvL_ext; [|apply (hinv_put L s g id None (new_send (max_send_data s id)) 0 H Lk)].
  - apply hcore_put0.
  - apply bufok_idle; cbn; try reflexivity; try lia.
    intros k a b fin Hl. destruct (h_frames _ _ _ H k id a b fin Hl) as (_ & B2 & _). contradiction.
  - reflexivity.
  - intros _. repeat split.
Qed.

Lemma kq_put s id old y :
  lookup id (send s) = Some old ->
  (s_state y <> 0 -> exists x, old = Some x /\ s_state x <> 0) -> kq s (put id y s).
Proof.
  intros L H. unfold kq, put. st_goal. rewrite keys_update.
  repeat split; auto. intros k z Lz Hz. rewrite lookup_update in Lz. destruct (Z.eqb_spec k id) as [->|Ne].
  - rewrite L in Lz. injection Lz as <-.
    destruct (H Hz) as (x & -> & Hx). exists x. auto.
  - exists z. auto.
Qed.

Lemma kq_put_state s id x y :
  lookup id (send s) = Some (Some x) -> s_state y = s_state x -> kq s (put id y s).
Proof. intros L E. apply (kq_put s id (Some x) y L). intros Hy. exists x. split; [reflexivity|congruence]. Qed.

Lemma kq_touch id s x s1 : touch id s = Some (x, s1) -> kq s s1.
Proof.
  intros T. destruct (touch_spec _ _ _ _ T) as [(Lk & ->)|(Lk & -> & ->)]; [apply kq_refl|].
  apply (kq_put s id None _ Lk). cbn. lia.
Qed.

(** An operation on stream [id] as the invariants see it: nothing, or [touch] and then possibly
    [y] for the entry [x] with [unacked_data] moved by [du], where [P x y du]. *)
Definition touch_step (P : Send -> Send -> Z -> Prop) (id : Z) (s s' : State) : Prop :=
  fcore s' = fcore s
  \/ exists x s1, touch id s = Some (x, s1)
       /\ (fcore s' = fcore s1
           \/ exists y du, P x y du
                /\ fcore s' = fcore (set_unacked_data (unacked_data s1 + du) (put id y s1))).

Lemma fcore_put0 id y s : fcore (set_unacked_data (unacked_data s + 0) (put id y s)) = fcore (put id y s).
Proof. unfold fcore, hcore, kcore, put. st_goal. rewrite Z.add_0_r. reflexivity. Qed.

Definition entry_ok (L : list (option Frame)) (id : Z) (x y : Send) (du : Z) : Prop :=
  BufOK L id x ->
  BufOK L id y /\ ucontrib (Some y) = ucontrib (Some x) + du /\ (early_entry x -> early_entry y).

Lemma touch_step_hinv L g P id s s' :
  touch_step P id s s' -> (forall x y du, P x y du -> entry_ok L id x y du) ->
  HInvL L s g -> HInvL L s' g /\ log s' = log s.
Proof.
  intros [E|(x & s1 & T & St)] HP H.
  { destruct (fcore_eq _ _ E) as (E1 & _ & E3). split; [eapply HInvL_ext; eauto|exact E3]. }
  destruct (touch_lookup _ _ _ _ T) as (L1 & Rl). pose proof (touch_hinv _ _ _ _ _ _ H T) as H1.
  destruct St as [E|(y & du & Hp & E)]; destruct (fcore_eq _ _ E) as (E1 & _ & E3).
  - split; [eapply HInvL_ext; eauto|congruence].
  - destruct (HP x y du Hp (h_buf _ _ _ H1 id x L1)) as (B & U & Ee).
    split; [|rewrite E3; exact Rl].
    eapply HInvL_ext; [exact E1|]. apply (hinv_put L s1 g id (Some x) y du H1 L1 B U).
    intros Hq. apply Ee. exact (h_early _ _ _ H1 Hq id x L1).
Qed.

Lemma touch_step_kq P id s s' :
  touch_step P id s s' -> (forall x y du, P x y du -> s_state y <> 0 -> s_state x <> 0) -> kq s s'.
Proof.
  intros [E|(x & s1 & T & St)] HP.
  { apply kq_core. apply (fcore_eq _ _ E). }
  apply (kq_trans _ s1); [eapply kq_touch; exact T|].
  destruct (touch_lookup _ _ _ _ T) as (L1 & _).
  destruct St as [E|(y & du & Hp & E)]; destruct (fcore_eq _ _ E) as (_ & E2 & _).
  - apply kq_core. exact E2.
  - apply (kq_trans _ (put id y s1)); [|apply kq_core; exact E2].
    apply (kq_put s1 id (Some x) y L1). intros Hy. exists x. split; [reflexivity|eauto].
Qed.

Lemma ok_same L id x y : same_buf x y -> entry_ok L id x y 0.
Proof.
  intros Hs Hb. split; [eapply bufok_same; eauto|].
  destruct Hs as (E1 & E2 & E3 & E4 & E5 & E6). unfold early_entry. cbn [ucontrib].
  rewrite E1, E2, E4, E5, E6. split; [lia|auto].
Qed.

Lemma bufok_write L id x w :
  BufOK L id x -> 0 <= w -> x.(s_state) <> 3 ->
  BufOK L id (set_s_ulen (s_ulen x + w) (set_s_offset (s_offset x + w) x)).
Proof.
  intros [A B C D F] Hw Hs.
  constructor; unfold base in *; st_goal; auto; try lia.
  intros _. destruct (F Hs) as [A1 A2 A3 A4 A5 A6 A7 A8 A9 A10].
  constructor; unfold base in *; st_goal; auto;
    try (replace (s_offset x + w - (s_ulen x + w)) with (s_offset x - s_ulen x) by lia; auto).
Qed.

Definition write_rel (x y : Send) (du : Z) : Prop :=
  same_buf x y /\ du = 0
  \/ s_state x = 0 /\ 0 <= du /\ y = set_s_ulen (s_ulen x + du) (set_s_offset (s_offset x + du) x).

Lemma write_step id n s s' r :
  do_write id n s = Some (s', r) -> 0 <= n -> touch_step write_rel id s s'.
Proof.
  intros W Hn.
  destruct (do_write_cases _ _ _ _ _ W)
    as [(limit & x & s1 & WL & T & _ & Hs & Hb & _ & ->)|(_ & [->|(x & s1 & T & [->| ->])])];
    [|left; reflexivity|right; exists x, s1; split; [exact T|]..].
  - right. exists x, s1. split; [exact T|]. right.
    assert (0 <= limit) by (destruct (write_limit_cases _ _ WL) as (? & ->); lia).
    eexists _, (Z.min n (Z.min limit (s_max_data x - s_offset x))).
    split; [right; split; [exact Hs|split; [lia|reflexivity]]|].
    destruct (is_pending x); view_eq.
  - left. reflexivity.
  - right. exists (set_s_cb true x), 0. split; [left; repeat split|rewrite fcore_put0; view_eq].
Qed.

Lemma write_ok L id x y du : write_rel x y du -> entry_ok L id x y du.
Proof.
  intros [(Hs & ->)|(Hs & Hw & ->)]; [apply ok_same; exact Hs|]. intros Hb.
  split; [apply bufok_write; auto; lia|]. unfold early_entry. cbn [ucontrib]. st_goal.
  split; [destruct (s_state x =? 3) eqn:E; lia|]. intros (X1 & X2 & X3). repeat split; auto. lia.
Qed.

Lemma write_hinv L s g id n s' r :
  HInvL L s g -> do_write id n s = Some (s', r) -> 0 <= n -> HInvL L s' g /\ log s' = log s.
Proof.
  intros H W Hn. eapply touch_step_hinv; [eapply write_step; eauto|apply write_ok|exact H].
Qed.

Lemma write_kq id n s s' r : do_write id n s = Some (s', r) -> 0 <= n -> kq s s'.
Proof.
  intros W Hn. eapply touch_step_kq; [eapply write_step; eauto|].
  intros x y du [((_ & _ & _ & _ & _ & E) & _)|(E & _ & ->)]; st_goal; lia.
Qed.

Definition finish_rel (x y : Send) (du : Z) : Prop :=
  s_state x = 0 /\ du = 0 /\ y = set_s_fin_pending true (set_s_state 1 x).

Lemma finish_step id s s' r : do_finish id s = Some (s', r) -> touch_step finish_rel id s s'.
Proof.
  intros F. unfold do_finish, ok in F.
  destruct (touch id s) as [[x s1]|] eqn:T; [|injection F as <- _; left; reflexivity].
  right. exists x, s1. split; [exact T|].
  destruct (s_stop x); [injection F as <- _; left; reflexivity|].
  destruct (s_state x =? 0) eqn:E0; injection F as <- _; [|left; reflexivity].
  right. exists (set_s_fin_pending true (set_s_state 1 x)), 0.
  split; [repeat split; lia|rewrite fcore_put0; view_eq].
Qed.

Lemma sb_unacked_spec x u : sb_unacked x = Some u -> u = x.(s_ulen) - rs_total x.(s_acks) /\ 0 <= u.
Proof.
  unfold sb_unacked. destruct (s_ulen x <? rs_total (s_acks x)) eqn:E; [discriminate|].
  intros H. injection H as <-. lia.
Qed.

Definition reset_rel (x y : Send) (du : Z) : Prop :=
  s_state x <> 3 /\ du = - (s_ulen x - rs_total (s_acks x)) /\ y = set_s_state 3 x.

Lemma reset_step id s s' r : do_reset id s = Some (s', r) -> touch_step reset_rel id s s'.
Proof.
  intros F. unfold do_reset, ok in F.
  destruct (touch id s) as [[x s1]|] eqn:T; [|injection F as <- _; left; reflexivity].
  right. exists x, s1. split; [exact T|].
  destruct (s_state x =? 3) eqn:E3; [injection F as <- _; left; reflexivity|].
  destruct (sb_unacked x) as [u|] eqn:SU; [|discriminate].
  destruct (unacked_data s1 <? u); [discriminate|]. injection F as <- _.
  destruct (sb_unacked_spec _ _ SU) as (-> & _).
  right. exists (set_s_state 3 x), (- (s_ulen x - rs_total (s_acks x))).
  split; [repeat split; lia|view_eq].
Qed.

Lemma state_ok L id x y du :
  buf_eq x y -> 0 <= s_state y <= 3 -> s_state x <> 3 -> ucontrib (Some y) = ucontrib (Some x) + du ->
  entry_ok L id x y du.
Proof.
  intros Hy Hr Hs Hu Hb. split; [eapply bufok_eq; eauto|]. split; [exact Hu|].
  destruct Hy as (E1 & E2 & E3 & E4 & E5). unfold early_entry. rewrite E1, E2, E4, E5. auto.
Qed.

Lemma finish_hinv L s g id s' r :
  HInvL L s g -> do_finish id s = Some (s', r) -> HInvL L s' g /\ log s' = log s.
Proof.
  intros H F. eapply touch_step_hinv; [eapply finish_step; eauto| |exact H].
  intros x y du (Hs & -> & ->). apply state_ok; [repeat split| | |]; cbn [ucontrib]; st_goal; try lia.
  rewrite Hs. red_eqb. lia.
Qed.

Lemma reset_hinv L s g id s' r :
  HInvL L s g -> do_reset id s = Some (s', r) -> HInvL L s' g /\ log s' = log s.
Proof.
  intros H F. eapply touch_step_hinv; [eapply reset_step; eauto| |exact H].
  intros x y du (Hs & -> & ->). apply state_ok; [repeat split| | |]; cbn [ucontrib]; st_goal; try lia.
  red_eqb. destruct (s_state x =? 3) eqn:E; lia.
Qed.

Definition kept (x y : Send) (du : Z) : Prop := same_buf x y /\ du = 0.

Lemma kept_hinv L g id s s' : touch_step kept id s s' -> HInvL L s g -> HInvL L s' g /\ log s' = log s.
Proof.
  intros St. apply (touch_step_hinv L g kept id s s' St). intros x y du (Hs & ->). apply ok_same, Hs.
Qed.

Lemma kept_kq id s s' : touch_step kept id s s' -> kq s s'.
Proof.
  intros St. apply (touch_step_kq kept id s s' St). intros x y du ((_ & _ & _ & _ & _ & E) & _). lia.
Qed.

Lemma on_stream_frame_fcore id s : fcore (on_stream_frame id s) = fcore s.
Proof. unfold on_stream_frame. view_eq. Qed.

Lemma stop_sending_step id code s : touch_step kept id s (do_stop_sending id code s).
Proof.
  unfold do_stop_sending. destruct (touch id s) as [[x s1]|] eqn:T; [|left; reflexivity].
  right. exists x, s1. split; [exact T|]. destruct (s_stop x); [left; reflexivity|].
  right. exists (set_s_stop (Some code) x), 0. split; [repeat split|].
  rewrite on_stream_frame_fcore, fcore_put0. view_eq.
Qed.

Lemma max_stream_data_step id v s s' r :
  do_max_stream_data id v s = Some (s', r) -> touch_step kept id s s'.
Proof.
  unfold do_max_stream_data, ok.
  destruct (negb (id_init id =? side s) && (id_dir id =? 1)); [intros E; injection E as <- _; left; reflexivity|].
  destruct (write_limit s) as [wl|]; [|discriminate].
  destruct (touch id s) as [[x s1]|] eqn:T.
  2:{ destruct (_ && _); intros E; injection E as <- _; left; [reflexivity|apply on_stream_frame_fcore]. }
  intros E; injection E as <- _. right. exists x, s1. split; [exact T|].
  rewrite on_stream_frame_fcore.
  destruct ((s_max_data x <? v) && (s_state x =? 0)); [|left; reflexivity]. right.
  destruct (s_offset x =? s_max_data x); [|exists (set_s_max_data v x), 0; split; [repeat split|rewrite fcore_put0; reflexivity]].
  destruct (0 <? wl); [exists (set_s_max_data v x), 0; split; [repeat split|rewrite fcore_put0; view_eq]|].
  st_goal. destruct (s_cb x); [exists (set_s_max_data v x), 0; split; [repeat split|rewrite fcore_put0; reflexivity]|].
  exists (set_s_cb true (set_s_max_data v x)), 0. split; [repeat split|rewrite fcore_put0; view_eq].
Qed.

Lemma stop_sending_hinv L s g id code :
  HInvL L s g -> HInvL L (do_stop_sending id code s) g /\ log (do_stop_sending id code s) = log s.
Proof. apply (kept_hinv L g id), stop_sending_step. Qed.

Lemma max_stream_data_hinv L s g id v s' r :
  HInvL L s g -> do_max_stream_data id v s = Some (s', r) -> HInvL L s' g /\ log s' = log s.
Proof. intros H F. apply (kept_hinv L g id); [eapply max_stream_data_step; exact F|exact H]. Qed.

Lemma put_step (P : Send -> Send -> Z -> Prop) id x y s :
  lookup id (send s) = Some (Some x) -> P x y 0 -> touch_step P id s (put id y s).
Proof.
  intros Lk Hp. right. exists x, s. split; [unfold touch; rewrite Lk; reflexivity|].
  right. exists y, 0. split; [exact Hp|rewrite fcore_put0; reflexivity].
Qed.

(** For any transitive relation that contains the steps ([kq], preservation of [HInvL]). *)
Lemma poll_pres (Q : State -> State -> Prop) s s' r :
  (forall a b c, Q a b -> Q b c -> Q a c) -> (forall id s s', touch_step kept id s s' -> Q s s') ->
  do_poll s = Some (s', r) -> Q s s'.
Proof.
  intros Qt Qs. unfold do_poll, pop_event, ok.
  destruct (opened_bi s); [intros E; injection E as <- _; apply (Qs 0); left; view_eq|].
  destruct (write_limit s) as [wl|]; [|discriminate].
  destruct (0 <? wl).
  - assert (S1 : Q s (fst (cb_loop (conn_blocked s) s))).
    { apply (cb_loop_pres Q Qt).
      - intros t u. apply (Qs 0). left. view_eq.
      - intros id x u Lk. apply (Qs id), (put_step kept id x); [exact Lk|repeat split]. }
    destruct (cb_loop (conn_blocked s) s) as [s1 [id|]]; cbn [fst] in S1.
    + intros E; injection E as <- _. exact S1.
    + destruct (events s1); intros E; injection E as <- _; [exact S1|].
      apply (Qt _ _ _ S1). apply (Qs 0). left. view_eq.
  - destruct (events s); intros E; injection E as <- _; apply (Qs 0); left; view_eq.
Qed.

Definition hpres (L : list (option Frame)) (g : Ghost) (s s' : State) : Prop :=
  HInvL L s g -> HInvL L s' g /\ log s' = log s.

Lemma hpres_trans L g a b c : hpres L g a b -> hpres L g b c -> hpres L g a c.
Proof. intros H1 H2 H. destruct (H1 H) as (A & B). destruct (H2 A) as (C & D). split; [exact C|congruence]. Qed.

Lemma poll_hinv L s g s' r : HInvL L s g -> do_poll s = Some (s', r) -> HInvL L s' g /\ log s' = log s.
Proof.
  intros H F. apply (poll_pres (hpres L g) s s' r (hpres_trans L g)); [|exact F|exact H].
  intros id t t' St. exact (kept_hinv L g id t t' St).
Qed.

Lemma poll_kq s s' r : do_poll s = Some (s', r) -> kq s s'.
Proof. apply (poll_pres kq s s' r kq_trans kept_kq). Qed.

Ltac destr_if :=
  repeat match goal with
  | H : context [if ?c then _ else _] |- _ => destruct c eqn:?
  | |- context [if ?c then _ else _] => destruct c eqn:?
  end.

Lemma open_hinv L s g d :
  HInvL L s g -> Inv s g -> 0 <= d <= 1 ->
  lookup (sid s.(side) d (get_next d s)) s.(send) = None ->
  HInvL L (set_send (insert (sid s.(side) d (get_next d s)) None s.(send))
             (set_next d (get_next d s + 1) s)) g.
Proof.
  intros [A B C D] I Hd Ln.
  pose proof (i_side _ _ I) as Hs. destruct (i_cnt _ _ I d Hd) as (Hn & _).
  remember (sid (side s) d (get_next d s)) as id eqn:Eid.
  assert (Hid : id_init id = side s /\ id_dir id = d /\ id_index id = get_next d s)
    by (subst id; rewrite id_init_sid, id_dir_sid, id_index_sid by lia; auto).
  destruct Hid as (Hii & Hid & Hix).
  set (s' := set_send _ _).
  assert (Hs' : side s' = side s /\ send s' = insert id None (send s) /\ unacked_data s' = unacked_data s
                /\ forall d0, get_next d0 s <= get_next d0 s')
    by (unfold s', get_next, set_next; destruct (d =? 0); st_goal; repeat split; intros; destr_if; lia).
  destruct Hs' as (Hsd & Hsn & Hun & Hnx).
  constructor; rewrite ?Hsd, ?Hsn, ?Hun.
  - intros k x Lk. rewrite lookup_insert in Lk by assumption. destruct (k =? id); [discriminate|].
    apply A. exact Lk.
  - intros k i a b fin Hl. destruct (B k i a b fin Hl) as (B1 & B2 & B3).
    split; [exact B1|]. split.
    + rewrite lookup_insert by assumption. destruct (Z.eqb_spec i id) as [->|Ne]; [|exact B2].
      exfalso. specialize (B3 Hii). rewrite Hid, Hix in B3. lia.
    + intros Hi. specialize (B3 Hi). pose proof (Hnx (id_dir i)). lia.
  - unfold usum. rewrite msum_insert. cbn [ucontrib]. unfold usum in C. lia.
  - intros Hp k x Lk. rewrite lookup_insert in Lk by assumption. destruct (k =? id); [discriminate|].
    apply (D Hp k). exact Lk.
Qed.

Lemma hinv_take L L' k fid a b fin s g :
  log_get k L = Some ((fid, a, b, fin), L') -> HInvL L s g ->
  (forall x, lookup fid s.(send) = Some (Some x) -> BufOK L' fid x) ->
  HInvL L' s g.
Proof.
  intros G [A B C D] Hf. constructor; auto.
  - intros id x Lk. destruct (Z.eq_dec id fid) as [->|Hn]; [apply Hf; exact Lk|].
    eapply bufok_feq; [eapply feq_take_other; [exact G|congruence]|]. apply A. exact Lk.
  - intros j i a' b' fin' Hl'. exact (B j i a' b' fin' (live_take _ _ _ _ _ _ G Hl')).
Qed.

Lemma hinv_take_put L L' k id a b fin s g x y du :
  log_get k L = Some ((id, a, b, fin), L') -> HInvL L s g -> g.(g_phase) = 2 ->
  lookup id s.(send) = Some (Some x) -> BufOK L' id y -> ucontrib (Some y) = ucontrib (Some x) + du ->
  HInvL L' (set_unacked_data (s.(unacked_data) + du) (put id y s)) g.
Proof.
  intros G H Hp Lk Hb Hu. apply (hinv_relog L L' s g id (Some x) y du H Lk); [| |exact Hb|exact Hu|].
  - intros i Hi. eapply feq_take_other; [exact G|congruence].
  - intros j i a' b' fin' Hl'. left. exact (live_take _ _ _ _ _ _ G Hl').
  - intros Hc. destruct (Hc Hp).
Qed.

Lemma bufok_take_reset L L' k fid a b fin x :
  log_get k L = Some ((fid, a, b, fin), L') -> BufOK L fid x -> x.(s_state) = 3 -> BufOK L' fid x.
Proof.
  intros G [A B C D F] Hs. constructor; auto; [|congruence].
  intros j a' b' fin' Hl'. exact (D j a' b' fin' (live_take _ _ _ _ _ _ G Hl')).
Qed.

(** [LiveOK] as three sets of offsets that partition [base, unsent): acknowledged [A], queued for
    retransmission [R], in flight [F]; the operations move an interval from one to another. *)
Record Parts (A R F : Z -> Prop) (lo hi : Z) : Prop := mkParts {
  p_a : forall y, A y -> lo <= y < hi;
  p_r : forall y, R y -> lo <= y < hi;
  p_f : forall y, F y -> lo <= y;
  p_ar : forall y, A y -> R y -> False;
  p_fa : forall y, F y -> A y -> False;
  p_fr : forall y, F y -> R y -> False }.

(** Pointwise facts: with every hypothesis instantiated at the offset, the rest is propositional
    and linear. *)
Ltac at_point y := repeat match goal with H : forall z : Z, _ |- _ => specialize (H y) end.

Lemma parts_swap A R F lo hi : Parts A R F lo hi -> Parts R A F lo hi.
Proof. intros [Pa Pr Pf Par Pfa Pfr]. constructor; intros y; at_point y; intuition lia. Qed.

(** Lost: from [F] to [R]; acknowledged: to [A], by [parts_swap]. *)
Lemma parts_lost A R F R' F' lo hi a b :
  Parts A R F lo hi -> (forall y, F' y <-> F y /\ ~ a <= y < b) -> (forall y, R' y <-> R y \/ a <= y < b) ->
  (forall y, a <= y < b -> F y) -> b <= hi -> Parts A R' F' lo hi.
Proof.
  intros [Pa Pr Pf Par Pfa Pfr] HF HR Hs Hb. constructor; intros y; at_point y; intuition lia.
Qed.

Lemma parts_resend A R F R' F' lo hi a b :
  Parts A R F lo hi -> (forall y, R' y <-> R y /\ ~ a <= y < b) -> (forall y, F' y <-> F y \/ a <= y < b) ->
  (forall y, a <= y < b -> R y) -> Parts A R' F' lo hi.
Proof.
  intros [Pa Pr Pf Par Pfa Pfr] HR HF Hs. constructor; intros y; at_point y; intuition lia.
Qed.

Lemma parts_send A R F F' lo hi e :
  Parts A R F lo hi -> (forall y, F' y <-> F y \/ hi <= y < e) -> lo <= hi <= e -> Parts A R F' lo e.
Proof.
  intros [Pa Pr Pf Par Pfa Pfr] HF He. constructor; intros y; at_point y; intuition lia.
Qed.

Lemma parts_pop A R F A' lo hi d :
  Parts A R F lo hi -> (forall y, A' y <-> A y /\ lo + d <= y) -> (forall y, lo <= y < lo + d -> A y) ->
  Parts A' R F (lo + d) hi.
Proof.
  intros [Pa Pr Pf Par Pfa Pfr] HA Hs.
  constructor; intros y; at_point y; destruct (Z_lt_dec y (lo + d)); intuition lia.
Qed.

Definition fcov (id : Z) (L : list (option Frame)) (y : Z) : Prop :=
  exists k a b fin, live L k (id, a, b, fin) /\ a <= y < b.

Definition fdisj (id : Z) (L : list (option Frame)) : Prop :=
  forall k k' a b fin a' b' fin' y,
    live L k (id, a, b, fin) -> live L k' (id, a', b', fin') -> k <> k' ->
    a <= y < b -> a' <= y < b' -> False.

Lemma liveok_parts L id x :
  LiveOK L id x <->
  W (base x + 1) (s_acks x) /\ W (base x) (s_retx x)
  /\ Parts (covers (s_acks x)) (covers (s_retx x)) (fcov id L) (base x) (s_unsent x)
  /\ fdisj id L
  /\ flen id L + rs_total (s_acks x) + rs_total (s_retx x) = s_unsent x - base x.
Proof.
  split.
  - intros [A1 A2 A3 A4 A5 A6 A7 A8 A9 A10].
    split; [exact A1|]. split; [exact A3|]. split; [|split; [exact A9|exact A10]]. constructor.
    + intros y Hc. pose proof (W_covers_ge _ _ _ A1 Hc). pose proof (A2 y Hc). lia.
    + intros y Hc. pose proof (W_covers_ge _ _ _ A3 Hc). pose proof (A4 y Hc). lia.
    + intros y (k & a & b & fin & Hl & Hy). pose proof (A5 k a b fin Hl). lia.
    + exact A6.
    + intros y (k & a & b & fin & Hl & Hy). exact (A7 k a b fin y Hl Hy).
    + intros y (k & a & b & fin & Hl & Hy). exact (A8 k a b fin y Hl Hy).
  - intros (W1 & W2 & [Pa Pr Pf Par Pfa Pfr] & D & N). constructor; auto.
    + intros y Hc. apply (Pa y Hc).
    + intros y Hc. apply (Pr y Hc).
    + intros k a b fin Hl Hlt. apply (Pf a). exists k, a, b, fin. split; [exact Hl|lia].
    + intros k a b fin y Hl Hy. apply (Pfa y). exists k, a, b, fin. auto.
    + intros k a b fin y Hl Hy. apply (Pfr y). exists k, a, b, fin. auto.
Qed.

Lemma fcov_snoc id L a b fin y :
  fcov id (L ++ [Some (id, a, b, fin)]) y <-> fcov id L y \/ a <= y < b.
Proof.
  split.
  - intros (k & a' & b' & f' & Hl & Hy). apply live_snoc in Hl. destruct Hl as [Hl|(_ & E)].
    + left. exists k, a', b', f'. auto.
    + injection E as -> -> ->. right. exact Hy.
  - intros [(k & a' & b' & f' & Hl & Hy)|Hy].
    + exists k, a', b', f'. split; [apply live_snoc; left; exact Hl|exact Hy].
    + exists (length L), a, b, fin. split; [apply live_snoc; right; auto|exact Hy].
Qed.

Lemma fdisj_snoc id L a b fin :
  fdisj id L -> (forall y, a <= y < b -> ~ fcov id L y) -> fdisj id (L ++ [Some (id, a, b, fin)]).
Proof.
  intros D Hn k k' a1 b1 f1 a2 b2 f2 y H1 H2 Hk Hy1 Hy2.
  apply live_snoc in H1. apply live_snoc in H2.
  destruct H1 as [H1|(K1 & E1)]; destruct H2 as [H2|(K2 & E2)].
  - exact (D _ _ _ _ _ _ _ _ y H1 H2 Hk Hy1 Hy2).
  - injection E2 as -> -> ->. apply (Hn y Hy2). exists k, a1, b1, f1. auto.
  - injection E1 as -> -> ->. apply (Hn y Hy1). exists k', a2, b2, f2. auto.
  - lia.
Qed.

Lemma fcov_take id L L' k a b fin :
  log_get k L = Some ((id, a, b, fin), L') -> fdisj id L ->
  (forall y, fcov id L' y <-> fcov id L y /\ ~ a <= y < b)
  /\ (forall y, a <= y < b -> fcov id L y) /\ fdisj id L'.
Proof.
  intros G D. destruct (log_get_spec _ _ _ _ G) as (Hl & Bl & _). split; [|split].
  - intros y. split.
    + intros (j & a' & b' & f' & Hl' & Hy). apply Bl in Hl'. destruct Hl' as (Hl' & Hj).
      split; [exists j, a', b', f'; auto|]. intros Hy'. exact (D _ _ _ _ _ _ _ _ y Hl' Hl Hj Hy Hy').
    + intros ((j & a' & b' & f' & Hl' & Hy) & Hn). exists j, a', b', f'. split; [|exact Hy].
      apply Bl. split; [exact Hl'|]. intros ->. unfold live in *. rewrite Hl in Hl'.
      injection Hl' as -> -> _. exact (Hn Hy).
  - intros y Hy. exists k, a, b, fin. auto.
  - intros j j' a1 b1 f1 a2 b2 f2 y H1 H2. apply Bl in H1. apply Bl in H2.
    exact (D _ _ _ _ _ _ _ _ y (proj1 H1) (proj1 H2)).
Qed.

(** A frame leaves the log and its interval joins the range set [R]. *)
Lemma parts_take L L' k id a b fin A R lo hi :
  log_get k L = Some ((id, a, b, fin), L') -> fdisj id L -> a <= b <= hi -> W lo R ->
  Parts A (covers R) (fcov id L) lo hi ->
  (a < b -> lo <= a) /\ W lo (rs_add a b R) /\ rs_total (rs_add a b R) = rs_total R + (b - a)
  /\ Parts A (covers (rs_add a b R)) (fcov id L') lo hi /\ fdisj id L'
  /\ flen id L' = flen id L - (b - a).
Proof.
  intros G Dj Hab WR P. destruct (log_get_spec _ _ _ _ G) as (_ & _ & Cl).
  destruct (fcov_take _ _ _ _ _ _ _ G Dj) as (HF & Hsub & Dj').
  assert (Hlo : a < b -> lo <= a) by (intros Hlt; apply (p_f _ _ _ _ _ P a), Hsub; lia).
  split; [exact Hlo|]. split; [apply rs_add_W; [exact Hlo|exact WR]|].
  split; [|split; [|split; [exact Dj'|]]].
  - apply (rs_add_total R lo a b WR); [lia|]. intros y Hy. exact (p_fr _ _ _ _ _ P y (Hsub y Hy)).
  - apply (parts_lost _ _ _ _ _ _ _ a b P HF); [intros y; apply rs_add_covers|exact Hsub|lia].
  - rewrite Cl. cbn [fcontrib]. rewrite Z.eqb_refl. reflexivity.
Qed.

Lemma bufok_lost L L' k id a b fin fp x :
  log_get k L = Some ((id, a, b, fin), L') -> BufOK L id x ->
  BufOK L' id (set_s_retx (rs_add a b (s_retx x)) (set_s_fin_pending fp x)).
Proof.
  intros G [A B C D F]. destruct (D _ _ _ _ (proj1 (log_get_spec _ _ _ _ G))) as (Fa & Fb).
  constructor; unfold base in *; st_goal; auto.
  - intros j a' b' fin' Hl'. exact (D j a' b' fin' (live_take _ _ _ _ _ _ G Hl')).
  - intros Hs. destruct (proj1 (liveok_parts _ _ _) (F Hs)) as (W1 & W2 & P & Dj & N).
    destruct (parts_take _ _ _ _ _ _ _ _ _ _ _ G Dj (conj (proj2 Fa) Fb) W2 P) as (_ & W2' & T & P' & Dj' & Fl).
    apply liveok_parts. unfold base in *. st_goal.
    split; [exact W1|]. split; [exact W2'|]. split; [exact P'|]. split; [exact Dj'|lia].
Qed.

Lemma bufok_ack L L' k id a b fin x :
  log_get k L = Some ((id, a, b, fin), L') -> BufOK L id x -> x.(s_state) <> 3 ->
  exists x1, sb_ack a b x = Some x1
    /\ BufOK L' id x1
    /\ ucontrib (Some x1) = ucontrib (Some x) - (b - a)
    /\ b - a <= ucontrib (Some x)
    /\ (x1.(s_ulen) = 0 -> x1.(s_acks) = []).
Proof.
  intros G [A B C D F] Hs. destruct (D _ _ _ _ (proj1 (log_get_spec _ _ _ _ G))) as (Fa & Fb).
  destruct (proj1 (liveok_parts _ _ _) (F Hs)) as (W1 & W2 & P & Dj & N).
  unfold base in *. set (bs := s_offset x - s_ulen x) in *.
  assert (W0 : W bs (s_acks x)) by (eapply W_weaken; [|exact W1]; lia).
  (* the frame joins the acknowledged ranges *)
  destruct (parts_take _ _ _ _ _ _ _ _ _ _ _ G Dj (conj (proj2 Fa) Fb) W0 (parts_swap _ _ _ _ _ P))
    as (Hlo & W1' & Htot & P1 & Dj' & Fl).
  apply parts_swap in P1. set (acks1 := rs_add a b (s_acks x)) in *.
  (* and the acknowledged prefix is released *)
  destruct (pop_acked_spec bs (s_ulen x) acks1 W1') as (ulen' & acks' & Pop & Pr & PW & Pt & Pc & Pp).
  { intros y Hc. pose proof (p_a _ _ _ _ _ P1 y Hc). lia. }
  { lia. }
  set (d := s_ulen x - ulen') in *.
  pose proof (parts_pop _ _ _ _ _ _ d P1 Pc Pp) as P2.
  assert (Hbu : bs + d <= s_unsent x).
  { destruct (Z.eq_dec d 0); [lia|]. pose proof (p_a _ _ _ _ _ P1 (bs + d - 1) (Pp (bs + d - 1) ltac:(lia))). lia. }
  assert (Hfl : 0 <= flen id L').
  { apply flen_nonneg. intros j a' b' f' Hl'. destruct (D _ _ _ _ (live_take _ _ _ _ _ _ G Hl')). lia. }
  pose proof (rs_total_nonneg _ _ W2) as Hrt.
  exists (set_s_acks acks' (set_s_ulen ulen' x)).
  split; [unfold sb_ack; fold bs; rewrite (rs_add_clamp _ _ _ _ Hlo); fold acks1; rewrite Pop; reflexivity|].
  split; [|split; [|split]].
  - constructor; unfold base; st_goal; fold bs; try lia.
    + intros j a' b' fin' Hl'. exact (D j a' b' fin' (live_take _ _ _ _ _ _ G Hl')).
    + intros _. apply liveok_parts. unfold base. st_goal.
      replace (s_offset x - ulen') with (bs + d) by (unfold bs, d; lia).
      split; [exact PW|]. split; [|split; [exact P2|split; [exact Dj'|]]].
      * apply (W_raise bs); [exact W2|]. intros y Hy Hc. exact (p_ar _ _ _ _ _ P1 y (Pp y Hy) Hc).
      * rewrite Fl, Pt, Htot. fold d. lia.
  - cbn [ucontrib]. st_goal. destruct (s_state x =? 3) eqn:E3; [lia|].
    rewrite Pt, Htot. fold d. lia.
  - cbn [ucontrib]. destruct (s_state x =? 3) eqn:E3; lia.
  - st_goal. intros Hz. apply (W_hi_empty (bs + d + 1) (s_unsent x) _ PW).
    + intros y Hc. apply (p_a _ _ _ _ _ P2 y Hc).
    + subst. unfold d, bs in *. lia.
Qed.

(** [stream_freed] once the stream has left the map. *)
Definition freed (id : Z) (s : State) : State :=
  set_send_streams (send_streams s - 1) (set_send (remove id (send s)) s).

Lemma hinv_remove L s g id x :
  HInvL L s g -> NoDup (keys s.(send)) -> lookup id s.(send) = Some (Some x) ->
  ucontrib (Some x) = 0 -> HInvL L (freed id s) g.
Proof.
  intros [A B C D] N Lk Hu. constructor; unfold get_next, freed in *; st_goal.
  - intros k y Ly. rewrite lookup_remove in Ly by exact N. destruct (k =? id); [discriminate|]. apply A. exact Ly.
  - intros k i a b fin Hl. destruct (B k i a b fin Hl) as (B1 & B2 & B3).
    split; [exact B1|]. split; [|exact B3]. rewrite lookup_remove by exact N. destruct (i =? id); [discriminate|exact B2].
  - unfold usum in *. rewrite msum_remove, Lk. lia.
  - intros Hp k y Ly. rewrite lookup_remove in Ly by exact N. destruct (k =? id); [discriminate|]. apply (D Hp k). exact Ly.
Qed.

Lemma take_sub L L' k f :
  log_get k L = Some (f, L') ->
  forall j i a b fin, live L' j (i, a, b, fin) -> live L j (i, a, b, fin) \/ i = fst (fst (fst f)).
Proof.
  intros G j i a b fin Hl. left. exact (live_take _ _ _ _ _ _ G Hl).
Qed.

Lemma put_facts id y u old s :
  lookup id (send s) = Some old -> NoDup (keys (send s)) ->
  NoDup (keys (send (set_unacked_data u (put id y s))))
  /\ lookup id (send (set_unacked_data u (put id y s))) = Some (Some y).
Proof.
  intros Lk N. unfold put. st_goal. rewrite keys_update, lookup_update, Z.eqb_refl, Lk. auto.
Qed.

Lemma ack_spec id a b fin s s' r :
  do_ack (id, a, b, fin) s = Some (s', r) ->
  fcore s' = fcore s /\ (forall x, lookup id (send s) = Some (Some x) -> s_state x = 3)
  \/ exists x x1 y,
       lookup id (send s) = Some (Some x) /\ s_state x <> 3 /\ sb_ack a b x = Some x1
       /\ buf_eq x1 y /\ (s_state y = s_state x \/ 1 <= s_state x <= 2 /\ 1 <= s_state y <= 2)
       /\ let t := set_unacked_data (unacked_data s - (b - a)) (put id y s) in
          fcore s' = fcore t \/ s_ulen y = 0 /\ s_state y <> 0 /\ fcore s' = fcore (freed id t).
Proof.
  unfold do_ack, ok.
  destruct (lookup id (send s)) as [[x|]|] eqn:Lk;
    try (intros E; injection E as <- _; left; split; [reflexivity|intros x; discriminate]).
  destruct (s_state x =? 3) eqn:E3.
  { intros E; injection E as <- _. left. split; [reflexivity|]. intros z Hz. injection Hz as <-. lia. }
  destruct (b <? a); [discriminate|]. destruct (unacked_data s <? b - a); [discriminate|].
  destruct (sb_ack a b x) as [x1|] eqn:SA; [|discriminate].
  destruct (sb_ack_credit _ _ _ _ SA) as (_ & _ & Es).
  intros F. right. exists x, x1.
  destruct ((s_state x1 =? 1) || (s_state x1 =? 2)) eqn:Eds.
  - exists (set_s_state (if (s_state x1 =? 2) || fin then 2 else 1) x1).
    do 4 (split; [first [reflexivity|lia|exact SA|repeat split]|]). split; [right; st_goal; destr_if; lia|].
    st_in F. destruct (((s_state x1 =? 2) || fin) && _) eqn:Efin.
    + unfold stream_freed in F. st_in F. destruct (send_streams s <? 1); [discriminate|].
      injection F as <- _. right. split; [st_goal; lia|]. split; [st_goal; destr_if; lia|].
      unfold fcore, hcore, kcore, freed, put. st_goal. rewrite remove_update. reflexivity.
    + injection F as <- _. left. view_eq.
  - exists x1. injection F as <- _.
    do 4 (split; [first [reflexivity|lia|exact SA|repeat split]|]). split; [left; exact Es|]. left. view_eq.
Qed.

Lemma ack_hinv L L' k id a b fin s g s' r :
  log_get k L = Some ((id, a, b, fin), L') -> HInvL L s g -> NoDup (keys s.(send)) ->
  g.(g_phase) = 2 ->
  do_ack (id, a, b, fin) (set_log L' s) = Some (s', r) ->
  HInvL L' s' g /\ log s' = L'.
Proof.
  intros G H N Hp F.
  destruct (ack_spec _ _ _ _ _ _ _ F) as [(E & H3)|(x & x1 & y & Lk & Hx & SA & Hy & Hst & Out)].
  { destruct (fcore_eq _ _ E) as (E1 & _ & E3). split; [|exact E3].
    apply (HInvL_ext L' s s' g E1). eapply hinv_take; eauto. intros x Lk.
    eapply bufok_take_reset; [exact G|exact (h_buf _ _ _ H id x Lk)|exact (H3 x Lk)]. }
  st_in Lk. pose proof (h_buf _ _ _ H id x Lk) as Hb. pose proof (b_state _ _ _ Hb) as Hsr.
  destruct (bufok_ack _ _ _ _ _ _ _ _ G Hb Hx) as (x1' & SA' & Hb1 & Hu1 & Hle & Hz).
  rewrite SA in SA'. injection SA' as <-. destruct (sb_ack_credit _ _ _ _ SA) as (_ & _ & Est).
  destruct Hy as (Y1 & Y2 & Y3 & Y4 & Y5).
  set (t := set_unacked_data (unacked_data s - (b - a)) (put id y s)).
  assert (Ht : HInvL L' t g).
  { eapply HInvL_ext; [|apply (hinv_take_put L L' k id a b fin s g x y (- (b - a)) G H Hp Lk)].
    - view_eq.
    - apply (bufok_eq L' id x1 y); [repeat split; assumption|lia|intros _; lia|exact Hb1].
    - cbn [ucontrib] in *. rewrite Y2, Y4. rewrite Est in Hu1.
      destruct (s_state x =? 3) eqn:E3; [lia|]. destruct (s_state y =? 3) eqn:Ey; lia. }
  destruct Out as [E|(Hu0 & Hs0 & E)]; destruct (fcore_eq _ _ E) as (E1 & _ & E3); (split; [|exact E3]).
  - exact (HInvL_ext L' t s' g E1 Ht).
  - (* finished and fully acknowledged *)
    apply (HInvL_ext L' (freed id t) s' g E1).
    destruct (put_facts id y (unacked_data s - (b - a)) _ s Lk N) as (Nt & Lt).
    apply (hinv_remove L' t g id y Ht Nt Lt). cbn [ucontrib].
    rewrite Y4, Hz by lia. destruct (s_state y =? 3); cbn; lia.
Qed.

Lemma lost_spec id a b fin s s' r :
  do_lost (id, a, b, fin) s = Some (s', r) ->
  fcore s' = fcore s /\ (forall x, lookup id (send s) <> Some (Some x))
  \/ exists x, lookup id (send s) = Some (Some x)
       /\ fcore s' = fcore (put id (set_s_retx (rs_add a b (s_retx x))
                                     (set_s_fin_pending (s_fin_pending x || fin) x)) s).
Proof.
  unfold do_lost, ok. destruct (lookup id (send s)) as [[x|]|] eqn:Lk;
    try (intros E; injection E as <- _; left; split; [reflexivity|intros x; discriminate]).
  destruct (s_unsent x <? b); [discriminate|]. cbv zeta. intros E; injection E as <- _.
  right. exists x. split; [reflexivity|view_eq].
Qed.

Lemma lost_hinv L L' k id a b fin s g s' r :
  log_get k L = Some ((id, a, b, fin), L') -> HInvL L s g -> g.(g_phase) = 2 ->
  do_lost (id, a, b, fin) (set_log L' s) = Some (s', r) ->
  HInvL L' s' g /\ log s' = L'.
Proof.
  intros G H Hp F.
  destruct (lost_spec _ _ _ _ _ _ _ F) as [(E & Hn)|(x & Lk & E)];
    destruct (fcore_eq _ _ E) as (E1 & _ & E3); (split; [|exact E3]).
  - apply (HInvL_ext L' s s' g E1). eapply hinv_take; eauto. intros z Hz. destruct (Hn z Hz).
  - st_in Lk. apply (HInvL_ext L' _ s' g E1).
    set (y := set_s_retx _ _) in *.
    eapply HInvL_ext; [|apply (hinv_take_put L L' k id a b fin s g x y 0 G H Hp Lk)].
    + exact (hcore_put0 id y s).
    + subst y. eapply bufok_lost; [exact G|exact (h_buf _ _ _ H id x Lk)].
    + subst y. cbn [ucontrib]. st_goal. lia.
Qed.

Lemma lost_kq f s s' r : do_lost f s = Some (s', r) -> kq s s'.
Proof.
  destruct f as [[[id a] b] fin]. intros F.
  destruct (lost_spec _ _ _ _ _ _ _ F) as [(E & _)|(x & Lk & E)]; destruct (fcore_eq _ _ E) as (_ & E2 & _).
  - apply kq_core. exact E2.
  - eapply kq_trans; [|apply kq_core; exact E2].
    apply (kq_put s id (Some x) _ Lk). st_goal. intros Hx. exists x. auto.
Qed.

Lemma reset_acked_spec id s s' r :
  do_reset_acked id s = Some (s', r) ->
  fcore s' = fcore s
  \/ exists x, lookup id (send s) = Some (Some x) /\ s_state x = 3
       /\ fcore s' = fcore (freed id s).
Proof.
  unfold do_reset_acked, ok.
  destruct (lookup id (send s)) as [[x|]|] eqn:Lk; try (intros E; injection E as <- _; left; reflexivity).
  destruct (s_state x =? 3) eqn:E3; [|intros E; injection E as <- _; left; reflexivity].
  unfold stream_freed. destruct (send_streams _ <? 1); [discriminate|]. intros E; injection E as <- _.
  right. exists x. split; [reflexivity|]. split; [lia|reflexivity].
Qed.

Lemma reset_acked_hinv L s g id s' r :
  HInvL L s g -> NoDup (keys s.(send)) -> do_reset_acked id s = Some (s', r) ->
  HInvL L s' g /\ log s' = log s.
Proof.
  intros H N F. destruct (reset_acked_spec _ _ _ _ F) as [E|(x & Lk & Hx & E)];
    destruct (fcore_eq _ _ E) as (E1 & _ & E3); (split; [|exact E3]); (eapply HInvL_ext; [exact E1|]).
  - exact H.
  - apply (hinv_remove L s g id x H N Lk). cbn [ucontrib]. rewrite Hx. reflexivity.
Qed.

Lemma vsize_bound x : 1 <= vsize x <= 8.
Proof. unfold vsize. destr_if; lia. Qed.

(** At most 8 bytes go to the offset and 8 to the length: with [17 <= m] a byte of data fits. *)
Lemma poll_transmit_spec m x a b enc x1 :
  17 <= m -> poll_transmit m x = (a, b, enc, x1) ->
  exists m2, 1 <= m2 /\
    match s_retx x with
    | [] => a = s_unsent x /\ b = Z.min (s_offset x) (m2 + a) /\ x1 = set_s_unsent b x
    | (rs, re) :: t =>
        a = rs /\ b = Z.min re (m2 + a) /\ x1 = set_s_retx (if b =? re then t else rs_add b re t) x
    end.
Proof.
  intros Hm. unfold poll_transmit.
  destruct (s_retx x) as [|[rs re] t]; intros E; injection E as <- <- _ <-;
    (eexists; split; [|repeat split]);
    match goal with |- context [vsize ?u] => pose proof (vsize_bound u) end; destr_if; lia.
Qed.

Lemma bufok_tx L id x m a b enc x1 fin :
  BufOK L id x -> x.(s_state) <> 3 -> 17 <= m -> poll_transmit m x = (a, b, enc, x1) ->
  BufOK (L ++ [Some (id, a, b, fin)]) id x1
  /\ ucontrib (Some x1) = ucontrib (Some x)
  /\ s_acks x1 = s_acks x /\ s_ulen x1 = s_ulen x /\ s_offset x1 = s_offset x
  /\ s_state x1 = s_state x /\ (s_retx x = [] -> s_retx x1 = []).
Proof.
  intros [A B C D F] Hs Hm Pt. destruct (poll_transmit_spec _ _ _ _ _ _ Hm Pt) as (m2 & Hm2 & Sp).
  destruct (proj1 (liveok_parts _ _ _) (F Hs)) as (W1 & W2 & P & Dj & N). unfold base in *.
  assert (Hhi : forall y, fcov id L y -> y < s_unsent x).
  { intros y (k & a' & b' & f' & Hl & Hy). destruct (D _ _ _ _ Hl). lia. }
  destruct (s_retx x) as [|[rs re] t] eqn:Rx.
  - (* new data *)
    destruct Sp as (-> & -> & ->). set (e := Z.min (s_offset x) (m2 + s_unsent x)) in *.
    split; [|st_goal; cbn [ucontrib]; st_goal; repeat split; auto].
    constructor; unfold base; st_goal; try lia.
    + intros k a' b' fin' Hl. apply live_snoc in Hl. destruct Hl as [Hl|(_ & Hl)].
      * destruct (D _ _ _ _ Hl). lia.
      * injection Hl as -> ->. lia.
    + intros _. apply liveok_parts. unfold base. st_goal. rewrite Rx.
      split; [exact W1|]. split; [exact I|]. split; [|split].
      * apply (parts_send _ _ _ _ _ _ e P); [intros y; apply fcov_snoc|lia].
      * apply fdisj_snoc; [exact Dj|]. intros y Hy Hc. specialize (Hhi y Hc). lia.
      * rewrite flen_snoc. cbn [fcontrib rs_total] in *. rewrite Z.eqb_refl. lia.
  - (* retransmission of a lost range *)
    destruct Sp as (-> & -> & ->). set (e := Z.min re (m2 + rs)) in *.
    pose proof W2 as (R1 & R2 & _).
    assert (Hre : re <= s_unsent x).
    { pose proof (p_r _ _ _ _ _ P (re - 1)) as H. rewrite covers_cons in H. lia. }
    destruct (rs_drop_prefix _ rs re t e W2) as (Hw' & Hc' & Htot); [lia|].
    set (retx' := if e =? re then t else rs_add e re t) in *.
    assert (Hin : forall y, rs <= y < e -> covers ((rs, re) :: t) y) by (intros y Hy; apply covers_cons; left; lia).
    split; [|st_goal; cbn [ucontrib]; st_goal; repeat split; auto; discriminate].
    constructor; unfold base; st_goal; try lia.
    + intros k a' b' fin' Hl. apply live_snoc in Hl. destruct Hl as [Hl|(_ & Hl)].
      * apply (D _ _ _ _ Hl).
      * injection Hl as -> ->. lia.
    + intros _. apply liveok_parts. unfold base. st_goal. fold retx'.
      split; [exact W1|]. split; [exact Hw'|]. split; [|split].
      * apply (parts_resend _ _ _ _ _ _ _ rs e P Hc'); [intros y; apply fcov_snoc|exact Hin].
      * apply fdisj_snoc; [exact Dj|]. intros y Hy Hc. exact (p_fr _ _ _ _ _ P y Hc (Hin y Hy)).
      * rewrite flen_snoc. cbn [fcontrib rs_total] in *. rewrite Z.eqb_refl, Htot. lia.
Qed.

Definition KeysOK (s : State) : Prop :=
  forall id, In id (keys s.(send)) ->
    0 <= id /\ (id_init id = s.(side) -> id_index id < get_next (id_dir id) s).

Lemma keysok_ext s s' :
  side s' = side s -> keys (send s') = keys (send s) -> next_bi s' = next_bi s -> next_uni s' = next_uni s ->
  KeysOK s -> KeysOK s'.
Proof. intros E1 E2 E3 E4 K id. unfold get_next. rewrite E1, E2, E3, E4. apply K. Qed.

(** For any transitive [Q] that contains the changes outside [fcore] and the emission of one frame. *)
Lemma tx_loop_pres (Q : list Frame -> State -> list Frame -> State -> Prop) :
  (forall acc s t, fcore t = fcore s -> Q acc s acc t) ->
  (forall a s b t c u, Q a s b t -> Q b t c u -> Q a s c u) ->
  (forall acc s id x m a b enc x1 x2 fin,
     lookup id (send s) = Some (Some x) -> s_state x <> 3 -> 17 <= m ->
     poll_transmit m x = (a, b, enc, x1) -> same_buf x1 x2 ->
     Q acc s (acc ++ [(id, a, b, fin)]) (put id x2 s)) ->
  forall fuel maxb buf s acc s' buf' fs okf,
    tx_loop fuel maxb buf s acc = (s', buf', fs, okf) -> Q acc s fs s'.
Proof.
  intros Qe Qt Qs.
  induction fuel as [|fuel IH]; intros maxb buf s acc s' buf' fs okf T; cbn [tx_loop] in T.
  - injection T as <- _ <- _. apply Qe. reflexivity.
  - destruct (buf + 25 <? maxb) eqn:Eb; [|injection T as <- _ <- _; apply Qe; reflexivity].
    destruct (pendq s) as [|id q] eqn:Pq; [injection T as <- _ <- _; apply Qe; reflexivity|].
    apply (Qt _ _ acc (set_pendq q s)); [apply Qe; view_eq|].
    destruct (lookup id (send (set_pendq q s))) as [[x|]|] eqn:Lk; try (eapply IH; exact T).
    destruct (s_state x =? 3) eqn:E3; [eapply IH; exact T|].
    destruct (poll_transmit (maxb - buf - 1 - vsize id) x) as [[[a b] enc] x1] eqn:P.
    pose proof (vsize_bound id) as Hv.
    eapply Qt; [|eapply IH; exact T].
    (* [buf + 25 < maxb] leaves at least 17 bytes after the frame type and the stream id *)
    match goal with |- Q _ _ ?acc' (if ?c then push_pending _ ?t else _) =>
      apply (Qt _ _ acc' t); [|apply Qe; destruct c; view_eq] end.
    eapply (Qs acc _ id x (maxb - buf - 1 - vsize id)); [exact Lk|lia|lia|exact P|destr_if; repeat split].
Qed.

Lemma tx_loop_kq fuel maxb buf s acc s' buf' fs okf :
  tx_loop fuel maxb buf s acc = (s', buf', fs, okf) -> kq s s'.
Proof.
  apply (tx_loop_pres (fun _ s _ s' => kq s s')).
  - intros _ t t' E. apply kq_core, (fcore_eq _ _ E).
  - intros _ t _ t' _ t''. apply kq_trans.
  - intros _ t id x m a b enc x1 x2 _ Lk _ _ P Sb. apply (kq_put_state t id x x2 Lk).
    destruct (poll_transmit_credit _ _ _ _ _ _ P) as (_ & _ & Ps). destruct Sb as (_ & _ & _ & _ & _ & Es). congruence.
Qed.

Lemma tx_loop_hinv g L0 fuel maxb buf s acc s' buf' fs okf :
  tx_loop fuel maxb buf s acc = (s', buf', fs, okf) ->
  HInvL (L0 ++ map (@Some Frame) acc) s g -> KeysOK s ->
  HInvL (L0 ++ map (@Some Frame) fs) s' g /\ KeysOK s' /\ log s' = log s.
Proof.
  apply (tx_loop_pres (fun acc s fs s' =>
    HInvL (L0 ++ map (@Some Frame) acc) s g -> KeysOK s ->
    HInvL (L0 ++ map (@Some Frame) fs) s' g /\ KeysOK s' /\ log s' = log s)).
  - intros acc0 t t' E H K. destruct (fcore_eq _ _ E) as (E1 & _ & E3).
    split; [eapply HInvL_ext; eauto|]. split; [|exact E3].
    unfold hcore in E1. inversion E1. eapply keysok_ext; [| | | |exact K]; congruence.
  - intros a t b t' c t'' Q1 Q2 H K. destruct (Q1 H K) as (H1 & K1 & L1).
    destruct (Q2 H1 K1) as (H2 & K2 & L2). split; [exact H2|]. split; [exact K2|congruence].
  - intros acc0 t id x m a b enc x1 x2 fin Lk Hx Hm P Sb H K.
    set (L := L0 ++ map (@Some Frame) acc0) in *. rewrite map_app, app_assoc. cbn [map]. fold L.
    destruct (bufok_tx L id x m a b enc x1 fin (h_buf _ _ _ H id x Lk) Hx Hm P)
      as (Bx1 & Ux1 & Ea & Eu & Eo & Es & Er).
    destruct (ok_same _ id x1 x2 Sb Bx1) as (Bx2 & Ux2 & Ex2).
    split; [|split; [eapply keysok_ext; [| | | |exact K]; try reflexivity; apply keys_update|reflexivity]].
    eapply HInvL_ext; [|apply (hinv_relog L _ t g id (Some x) x2 0 H Lk)].
    + apply hcore_put0.
    + intros i Hi. apply feq_snoc_other. congruence.
    + intros k i a' b' fin' Hl. apply live_snoc in Hl. destruct Hl as [Hl|(_ & Hl)]; [auto|]. right.
      split; [congruence|apply K; eapply lookup_in_keys; exact Lk].
    + exact Bx2.
    + cbn [ucontrib] in *. lia.
    + intros Hp. destruct (h_early _ _ _ H Hp id x Lk) as (X1 & X2 & X3).
      apply Ex2. unfold early_entry. rewrite Ea, Eu, Eo. auto.
Qed.

Lemma transmit_hinv s g maxb s' r :
  HInv s g -> Inv s g -> do_transmit maxb s = Some (s', r) -> HInv s' g.
Proof.
  intros H I F. unfold do_transmit, ok in F. unfold HInv in *.
  destruct (tx_loop _ maxb 0 s []) as [[[s1 buf] fs] okf] eqn:T.
  destruct (tx_loop_hinv g (log s) _ _ _ _ _ _ _ _ _ T) as (A & _ & B); [cbn [map]; rewrite app_nil_r; exact H|exact (i_keys _ _ I)|].
  injection F as <- _. st_goal. rewrite B. eapply HInvL_ext; [|exact A]. view_eq.
Qed.

Lemma phase1_remote s g k :
  Inv s g -> g.(g_phase) = 1 -> In k (keys s.(send)) -> 0 <= k /\ id_init k <> s.(side).
Proof.
  intros I Hp Hk. destruct (i_keys _ _ I k Hk) as (K2 & K3). split; [exact K2|]. intros El.
  destruct (i_early _ _ I ltac:(lia)) as (_ & _ & _ & M4). destruct (M4 Hp) as (N1 & N2 & _).
  specialize (K3 El). unfold get_next, id_index in K3. destr_if; lia.
Qed.

Lemma phase1_no_streams s g k x :
  Inv s g -> g.(g_phase) = 1 -> lookup k s.(send) = Some (Some x) -> False.
Proof.
  intros I Hp Lk. destruct (phase1_remote s g k I Hp (lookup_in_keys _ _ _ Lk)) as (_ & El).
  destruct (i_early _ _ I ltac:(lia)) as (M1 & _). specialize (M1 _ _ Lk El). discriminate.
Qed.

Lemma hinv_no_streams L s g :
  NoDup (keys s.(send)) -> (forall id x, lookup id s.(send) <> Some (Some x)) ->
  (forall k f, ~ live L k f) -> s.(unacked_data) = 0 -> HInvL L s g.
Proof.
  intros N Hn Hl Hu. constructor.
  - intros id x Lk. destruct (Hn id x Lk).
  - intros k id a b fin Hlv. destruct (Hl _ _ Hlv).
  - rewrite Hu. symmetry. apply msum_zero. intros k [x|] Hin; [|reflexivity].
    destruct (Hn k x (In_lookup _ _ _ N Hin)).
  - intros _ id x Lk. destruct (Hn id x Lk).
Qed.

Lemma reject_hinv s g s' g' :
  Inv s g -> g.(g_phase) = 0 -> do_reject s = Some s' -> Inv s' g' -> g'.(g_phase) = 1 -> HInv s' g'.
Proof.
  intros I0 Hp0 R I Hp. destruct (reject_spec s g s' I0 Hp0 R) as (_ & _ & Hl & _).
  unfold HInv. rewrite Hl. apply hinv_no_streams.
  - exact (i_nodup _ _ I).
  - intros id x Lk. exact (phase1_no_streams _ _ _ _ I Hp Lk).
  - intros k f. apply live_dead.
  - destruct (i_early _ _ I ltac:(lia)) as (_ & _ & _ & M4). apply (M4 Hp).
Qed.

Lemma params_hinv s g p g' :
  HInv s g -> Inv s g -> g.(g_phase) <> 2 -> g'.(g_phase) = 2 -> HInv (do_set_params p s) g'.
Proof.
  intros H I Hp Hp'. unfold HInv in *.
  destruct (i_early _ _ I Hp) as (M1 & _).
  pose proof (set_remote_limits_id (side s) (p_sd_bidi_local p) _ (i_nodup _ _ I) M1) as Hrl.
  assert (Hl : log (do_set_params p s) = log s) by reflexivity.
  rewrite Hl. eapply hinv_ghost; [intros Hc; destruct (Hc Hp')|].
  eapply HInvL_ext; [|exact H]. unfold hcore. autorewrite with sp. rewrite Hrl. reflexivity.
Qed.

Definition EarlyBuf (y : Send) : Prop :=
  y.(s_acks) = [] /\ y.(s_retx) = [] /\ y.(s_ulen) = y.(s_offset) /\ 0 <= y.(s_ulen)
  /\ 0 <= y.(s_unsent) <= y.(s_offset) /\ 0 <= y.(s_state) <= 3.

Definition AllEarly (s : State) : Prop :=
  forall k y, lookup k s.(send) = Some (Some y) -> EarlyBuf y.

Lemma retry_stream_step fixed id s s' :
  retry_stream fixed id s = Some s' ->
  s' = s /\ (forall x, lookup id (send s) = Some (Some x) -> s_ulen x = 0)
  \/ exists x x1, lookup id (send s) = Some (Some x) /\ same_buf x x1
       /\ fcore s' = fcore (put id (set_s_unsent 0 x1) s).
Proof.
  unfold retry_stream. destruct (lookup id (send s)) as [[x|]|] eqn:L;
    try (intros E; injection E as <-; left; split; [reflexivity|intros x; discriminate]).
  set (quiet := (s_ulen x =? 0) && negb (s_fin_pending x)).
  destruct (quiet && negb (fixed && ((s_state x =? 1) || (s_state x =? 2)))) eqn:Q.
  { intros E; injection E as <-. left. split; [reflexivity|]. intros z Hz. injection Hz as <-.
    destruct quiet eqn:Eq; [subst quiet; lia|discriminate]. }
  set (x1 := if quiet then set_s_fin_pending true x else x).
  destruct (s_offset x1 =? s_ulen x1); [|discriminate]. intros E; injection E as <-.
  right. exists x, x1. split; [reflexivity|]. split; [subst x1; destruct quiet; repeat split|view_eq].
Qed.

Lemma retry_stream_spec fixed id s s' :
  retry_stream fixed id s = Some s' -> AllEarly s ->
  AllEarly s'
  /\ (forall k, k <> id -> lookup k s'.(send) = lookup k s.(send))
  /\ (forall y, lookup id s'.(send) = Some (Some y) -> s_unsent y = 0)
  /\ usum s'.(send) = usum s.(send).
Proof.
  intros R P. destruct (retry_stream_step _ _ _ _ R) as [(-> & Hq)|(x & x1 & L & Sb & E)].
  { split; [exact P|]. split; [auto|]. split; [|reflexivity].
    intros y Ly. destruct (P id y Ly) as (_ & _ & X3 & _ & X5 & _).
    specialize (Hq y Ly). lia. }
  destruct (fcore_eq _ _ E) as (E1 & _). unfold hcore in E1. injection E1 as _ Es _ _ _.
  destruct Sb as (S1 & S2 & S3 & S4 & S5 & S6). destruct (P id x L) as (X1 & X2 & X3 & X4 & X5 & X6).
  unfold AllEarly. rewrite <- Es. split; [|split; [|split]].
  - intros k z Lz. rewrite lookup_update in Lz. destruct (k =? id); [|exact (P k z Lz)].
    rewrite L in Lz. injection Lz as <-. unfold EarlyBuf. st_goal. rewrite S1, S2, S4, S5, S6.
    repeat split; auto; lia.
  - intros k Hk. rewrite lookup_update. destruct (k =? id) eqn:E0; [lia|reflexivity].
  - intros z Lz. rewrite lookup_update, Z.eqb_refl, L in Lz. injection Lz as <-. reflexivity.
  - unfold usum. rewrite msum_update, L. cbn [ucontrib]. st_goal. rewrite S2, S4, S6. lia.
Qed.

Definition all_unsent (s : State) (k : Z) : Prop :=
  forall y, lookup k s.(send) = Some (Some y) -> s_unsent y = 0.

Lemma retry_dir_spec fixed d n : forall s s',
  retry_dir fixed d n s = Some s' -> AllEarly s ->
  AllEarly s' /\ (forall k, all_unsent s k -> all_unsent s' k)
  /\ (forall i, 0 <= i < Z.of_nat n -> all_unsent s' (sid 0 d i))
  /\ usum s'.(send) = usum s.(send).
Proof.
  induction n as [|n IH]; intros s s' R P; cbn [retry_dir] in R.
  - injection R as <-. split; [exact P|]. split; [auto|]. split; [intros i Hi; lia|reflexivity].
  - destruct (retry_dir fixed d n s) as [s1|] eqn:R1; [|discriminate].
    destruct (IH _ _ R1 P) as (P1 & K1 & V1 & U1).
    destruct (retry_stream_spec _ _ _ _ R P1) as (P2 & A2 & B2 & U2).
    assert (K2 : forall k, all_unsent s1 k -> all_unsent s' k).
    { intros k Hk y Ly. destruct (Z.eq_dec k (sid 0 d (Z.of_nat n))) as [->|Hn]; [exact (B2 y Ly)|].
      rewrite A2 in Ly by exact Hn. exact (Hk y Ly). }
    split; [exact P2|]. split; [auto|]. split; [|congruence].
    intros i Hi. destruct (Z.eq_dec i (Z.of_nat n)) as [->|Hn]; [exact B2|apply K2, V1; lia].
Qed.

Lemma hinv_allearly s g : HInv s g -> g.(g_phase) <> 2 -> AllEarly s.
Proof.
  intros H Hp k y Lk. destruct (h_early _ _ _ H Hp k y Lk) as (X1 & X2 & X3).
  destruct (h_buf _ _ _ H k y Lk) as [A B C D F]. unfold base in *.
  unfold EarlyBuf. repeat split; auto; lia.
Qed.

Lemma bufok_dead_early L id y :
  EarlyBuf y -> s_unsent y = 0 -> BufOK (map (fun _ : option Frame => None) L) id y.
Proof.
  intros (X1 & X2 & X3 & X4 & X5 & X6) Hu.
  apply bufok_idle; unfold base; auto; try lia. intros k a b fin. apply live_dead.
Qed.

Lemma sc_hcore s s' :
  sc s s' -> side s' = side s /\ unacked_data s' = unacked_data s
             /\ next_bi s' = next_bi s /\ next_uni s' = next_uni s.
Proof. intros (Q & _). unfold rest in Q. inversion Q. auto. Qed.

Lemma retry_hinv s g s' :
  HInv s g -> Inv s g -> g.(g_phase) = 0 -> s.(side) = 0 -> do_retry s = Some s' -> HInv s' g.
Proof.
  intros H I Hp Hsd R. pose proof (retry_inv _ _ _ I R) as I'.
  destruct (retry_cases _ _ R) as (s1 & s2 & R1 & R2 & ->).
  destruct (sc_hcore _ _ (retry_dir_sc _ _ _ _ _ R1)) as (S1 & U1 & B1 & N1).
  destruct (sc_hcore _ _ (retry_dir_sc _ _ _ _ _ R2)) as (S2 & U2 & B2 & N2).
  destruct (retry_dir_spec _ _ _ _ _ R1 (hinv_allearly _ _ H ltac:(lia))) as (P1 & _ & V1 & W1).
  destruct (retry_dir_spec _ _ _ _ _ R2 P1) as (P2 & K2 & V2 & W2).
  (* every stream state of the result belongs to a local stream, and those were all visited *)
  assert (Hz : forall k y, lookup k (send s2) = Some (Some y) -> EarlyBuf y /\ s_unsent y = 0).
  { intros k y Lk. split; [exact (P2 k y Lk)|].
    destruct (i_early _ _ I' ltac:(lia)) as (M1 & _).
    destruct (Z.eq_dec (id_init k) (side s2)) as [El|El]; [|specialize (M1 _ _ Lk El); discriminate].
    pose proof (local_is_loc _ _ k I' (lookup_in_keys _ _ _ Lk) El) as Hloc. st_in Hloc.
    rewrite S2, S1, Hsd, B2, B1, N2 in Hloc.
    destruct Hloc as [(i & Hi & ->)|(i & Hi & ->)]; [exact (K2 _ (V1 i Hi) y Lk)|exact (V2 i Hi y Lk)]. }
  unfold HInv. st_goal. constructor; unfold get_next; st_goal.
  - intros k y Lk. destruct (Hz k y Lk). apply bufok_dead_early; assumption.
  - intros k i a b fin Hl. destruct (live_dead _ _ _ Hl).
  - rewrite U2, U1, W2, W1. exact (h_usum _ _ _ H).
  - intros _ k y Lk. destruct (Hz k y Lk) as ((X1 & X2 & X3 & _) & _). auto.
Qed.

Lemma stop_sending_kq id code s : kq s (do_stop_sending id code s).
Proof. apply (kept_kq id), stop_sending_step. Qed.

Lemma max_stream_data_kq id v s s' r : do_max_stream_data id v s = Some (s', r) -> kq s s'.
Proof. intros F. apply (kept_kq id). eapply max_stream_data_step. exact F. Qed.

Lemma retry_stream_kq fixed id s s' : retry_stream fixed id s = Some s' -> kq s s'.
Proof.
  intros R. destruct (retry_stream_step _ _ _ _ R) as [(-> & _)|(x & x1 & L & Sb & E)]; [apply kq_refl|].
  eapply kq_trans; [|apply kq_core, (fcore_eq _ _ E)].
  apply (kq_put_state s id x _ L). apply Sb.
Qed.

Lemma retry_dir_kq fixed d n : forall s s', retry_dir fixed d n s = Some s' -> kq s s'.
Proof.
  induction n as [|n IH]; intros s s' R; cbn [retry_dir] in R.
  - injection R as <-. apply kq_refl.
  - destruct (retry_dir fixed d n s) as [s1|] eqn:R1; [|discriminate].
    eapply kq_trans; [apply IH; exact R1|eapply retry_stream_kq; exact R].
Qed.

Lemma retry_kq s s' : do_retry s = Some s' -> kq s s'.
Proof.
  intros R. destruct (retry_cases _ _ R) as (s1 & s2 & R1 & R2 & ->).
  eapply kq_trans; [eapply retry_dir_kq; exact R1|].
  eapply kq_trans; [eapply retry_dir_kq; exact R2|]. apply kq_core. view_eq.
Qed.

Lemma transmit_kq maxb s s' r : do_transmit maxb s = Some (s', r) -> kq s s'.
Proof.
  unfold do_transmit, ok. destruct (tx_loop _ maxb 0 s []) as [[[s1 buf] fs] okf] eqn:T.
  intros E; injection E as <- _. eapply kq_trans; [eapply tx_loop_kq; exact T|apply kq_core; view_eq].
Qed.

Lemma cnt_filter_insert f id v m :
  length (filter f (keys (insert id v m))) = (length (filter f (keys m)) + (if f id then 1 else 0))%nat.
Proof.
  induction m as [|[a w] t IH]; cbn [insert keys map fst filter].
  - destruct (f id); cbn; lia.
  - destruct (id <? a); cbn [map fst filter].
    + destruct (f id), (f a); cbn [length]; fold (keys t); lia.
    + fold (keys (insert id v t)). fold (keys t). destruct (f a); cbn [length]; rewrite IH; lia.
Qed.

Lemma cnt_filter_remove f id m :
  NoDup (keys m) -> In id (keys m) ->
  (length (filter f (keys (remove id m))) + (if f id then 1 else 0))%nat = length (filter f (keys m)).
Proof.
  induction m as [|[a w] t IH]; cbn [remove keys map fst filter In]; intros N Hin; [tauto|].
  inversion N as [|? ? Hn Hd]; subst.
  destruct (Z.eqb_spec a id) as [->|Ne].
  - fold (keys t). destruct (f id); cbn [length]; lia.
  - destruct Hin as [Hin|Hin]; [lia|]. cbn [map fst filter]. fold (keys (remove id t)). fold (keys t).
    specialize (IH Hd Hin). destruct (f a); cbn [length]; lia.
Qed.

Lemma filter_le (f f' : Z -> bool) l :
  (forall k, In k l -> f' k = true -> f k = true) ->
  (length (filter f' l) <= length (filter f l))%nat.
Proof.
  induction l as [|a t IH]; intros H; cbn [filter length]; [lia|].
  assert (IH' : (length (filter f' t) <= length (filter f t))%nat)
    by (apply IH; intros k Hk; apply H; right; exact Hk).
  destruct (f' a) eqn:Ea.
  - rewrite (H a (or_introl eq_refl) Ea). cbn [length]. lia.
  - destruct (f a); cbn [length]; lia.
Qed.

Lemma filter_le_one (f f' : Z -> bool) k0 l :
  NoDup l -> (forall k, In k l -> f' k = true -> f k = true \/ k = k0) ->
  (length (filter f' l) <= length (filter f l) + 1)%nat.
Proof.
  induction l as [|a t IH]; intros N H; cbn [filter length]; [lia|].
  inversion N as [|? ? Hn Hd]; subst.
  destruct (Z.eq_dec a k0) as [Ea|Hne].
  - subst a.
    assert (Ht : (length (filter f' t) <= length (filter f t))%nat).
    { apply filter_le. intros k Hk Hf. destruct (H k (or_intror Hk) Hf) as [|E]; [assumption|].
      subst k. contradiction. }
    destruct (f' k0), (f k0); cbn [length]; lia.
  - assert (Ha : f' a = true -> f a = true).
    { intros Ha. destruct (H a (or_introl eq_refl) Ha); [assumption|contradiction]. }
    assert (IH' : (length (filter f' t) <= length (filter f t) + 1)%nat)
      by (apply IH; [exact Hd|intros k Hk; apply H; right; exact Hk]).
    destruct (f' a) eqn:Ea; [rewrite (Ha eq_refl)|destruct (f a)]; cbn [length]; lia.
Qed.

Lemma sinv_open s g id :
  SInv s g -> id_init id = s.(side) -> lookup id s.(send) = None ->
  SInv (set_send_streams (s.(send_streams) + 1) (set_send (insert id None s.(send)) s)) g.
Proof.
  intros [A B C D E] Hii Ln.
  constructor; unfold cnt, counted in *; st_goal; auto.
  - rewrite cnt_filter_insert. rewrite Hii, Z.eqb_refl. cbn [orb]. lia.
  - intros k Hk Hr. apply keys_insert in Hk. destruct Hk as [->|Hk]; [congruence|auto].
  - intros k x Lk. rewrite lookup_insert in Lk by exact Ln. destruct (k =? id); [discriminate|].
    eapply D; eauto.
Qed.

Lemma sinv_accept s g :
  SInv s g -> NoDup (keys s.(send)) -> 0 <= s.(side) <= 1 ->
  SInv (set_send_streams (s.(send_streams) + 1) (set_next_reported_bi (s.(next_reported_bi) + 1) s))
       (mkGhost 2 g.(g_par) g.(g_md) g.(g_msd) g.(g_ms) g.(g_closed)).
Proof.
  intros [A B C D E] N Hsd.
  (* the only key that starts to count is the stream just accepted *)
  set (f' := fun k => (id_init k =? side s) || ((id_dir k =? 0) && (id_index k <? next_reported_bi s + 1))).
  assert (Hle : (length (filter f' (keys (send s))) <= length (filter (counted s) (keys (send s))) + 1)%nat).
  { apply (filter_le_one _ _ (sid (1 - side s) 0 (next_reported_bi s)) _ N). intros k _. unfold counted, f'.
    destruct (id_init k =? side s) eqn:E1; [auto|]. destruct (id_dir k =? 0) eqn:E2; [|discriminate].
    cbn [orb andb]. intros E3. unfold sid, id_init, id_dir, id_index in *. lia. }
  constructor; unfold cnt, counted in *; st_goal; fold f'; auto; try lia.
  intros Hc. destruct (Hc eq_refl).
Qed.

Lemma sinv_remove s g id x :
  SInv s g -> NoDup (keys s.(send)) -> lookup id s.(send) = Some (Some x) -> x.(s_state) <> 0 ->
  1 <= s.(send_streams)
  /\ SInv (set_send_streams (s.(send_streams) - 1) (set_send (remove id s.(send)) s)) g.
Proof.
  intros [A B C D E] N Lk Hs.
  assert (Hin : In id (keys (send s))) by (eapply lookup_in_keys; eauto).
  assert (Hc : counted s id = true).
  { unfold counted. destruct (id_init id =? side s) eqn:E1; [reflexivity|]. cbn [orb].
    assert (Hr : id_init id <> side s) by lia.
    rewrite (C id Hin Hr). red_eqb. cbn [andb]. specialize (D id x Lk Hr Hs). lia. }
  pose proof (cnt_filter_remove (counted s) id (send s) N Hin) as Hf. rewrite Hc in Hf. cbv iota in Hf.
  unfold cnt in A. split; [lia|].
  constructor; unfold cnt, counted in *; st_goal; auto.
  - lia.
  - intros k Hk. apply C. eapply keys_remove_subset. exact Hk.
  - intros k y Ly. rewrite lookup_remove in Ly by exact N. destruct (k =? id); [discriminate|]. eapply D; eauto.
Qed.

Lemma sinv_put_app s g id x y :
  SInv s g -> lookup id s.(send) = Some (Some x) ->
  (id_init id <> s.(side) -> id_index id < s.(next_reported_bi)) ->
  SInv (put id y s) g.
Proof.
  intros [A B C D E] Lk Happ.
  constructor; unfold cnt, counted, put in *; st_goal; rewrite ?keys_update; auto.
  intros k z Lz Hr Hs. rewrite lookup_update in Lz. destruct (Z.eqb_spec k id) as [->|Ne].
  - auto.
  - eapply D; eauto.
Qed.

Lemma app_ok_known s id :
  app_ok s id = true -> lookup id s.(send) <> None ->
  id_init id <> s.(side) -> id_index id < s.(next_reported_bi).
Proof.
  unfold app_ok, in_map_remote. intros H L Hr.
  destruct (lookup id (send s)); [|contradiction].
  destruct (id_init id =? side s) eqn:E; [lia|]. cbn [negb andb orb] in H. lia.
Qed.

Lemma app_ok_remote s id x :
  app_ok s id = true -> lookup id s.(send) = Some (Some x) ->
  id_init id <> s.(side) -> id_index id < s.(next_reported_bi).
Proof. intros H L. apply app_ok_known; [exact H|congruence]. Qed.

(** The application may do anything to a stream it holds. *)
Lemma touch_step_sinv P id s s' g : touch_step P id s s' -> SInv s g -> app_ok s id = true -> SInv s' g.
Proof.
  intros [E|(x & s1 & T & St)] I Ha.
  { eapply SInv_ext; [apply (fcore_eq _ _ E)|exact I]. }
  pose proof (kq_touch _ _ _ _ T) as K1. pose proof (sinv_kq _ _ _ I K1) as I1.
  destruct (touch_lookup _ _ _ _ T) as (L1 & _).
  destruct St as [E|(y & du & _ & E)]; destruct (fcore_eq _ _ E) as (_ & E2 & _).
  { eapply SInv_ext; [exact E2|exact I1]. }
  apply (SInv_ext (put id y s1) s' g E2). apply (sinv_put_app s1 g id x y I1 L1). destruct K1 as (E1 & _ & E3 & _). rewrite E1, E3.
  apply (app_ok_known s id Ha). unfold touch in T. destruct (lookup id (send s)); discriminate.
Qed.

Lemma finish_sinv s g id s' r :
  SInv s g -> app_ok s id = true -> do_finish id s = Some (s', r) -> SInv s' g.
Proof. intros I Ha F. exact (touch_step_sinv _ id s s' g (finish_step _ _ _ _ F) I Ha). Qed.

Lemma reset_sinv s g id s' r :
  SInv s g -> app_ok s id = true -> do_reset id s = Some (s', r) -> SInv s' g.
Proof. intros I Ha F. exact (touch_step_sinv _ id s s' g (reset_step _ _ _ _ F) I Ha). Qed.

Lemma reject_sinv s g s' g' :
  SInv s g -> Inv s g -> g.(g_phase) = 0 -> do_reject s = Some s' ->
  Inv s' g' -> g'.(g_phase) = 1 -> SInv s' g'.
Proof.
  intros [A B C D E] I Hp R I' Hp'.
  destruct (reject_spec s g s' I Hp R) as (_ & Hm & _ & F1 & F2 & F3). specialize (E ltac:(lia)).
  constructor; rewrite ?F1, ?F2, ?F3; auto; try lia.
  - assert (Hnc : forall k, In k (keys (send s')) -> counted s' k = false).
    { intros k Hk. unfold counted. rewrite F2, E. destruct (phase1_remote s' g' k I' Hp' Hk) as (K2 & Hr).
      destruct (id_init k =? side s') eqn:E1; [lia|]. cbn [orb].
      destruct (id_dir k =? 0); cbn [andb]; [|reflexivity]. unfold id_index. lia. }
    unfold cnt. rewrite (filter_none _ _ Hnc). cbn. lia.
  - intros k Hk Hr. destruct (lookup k (send s')) as [v|] eqn:Lk; [|destruct (in_keys_lookup _ _ Hk Lk)].
    destruct (Hm k v Lk) as (L0 & _). apply C; [exact (lookup_in_keys _ _ _ L0)|congruence].
  - intros id x Lk. destruct (phase1_no_streams _ _ _ _ I' Hp' Lk).
Qed.

Lemma ack_sinv f s g s' r :
  SInv s g -> NoDup (keys s.(send)) -> do_ack f s = Some (s', r) -> SInv s' g.
Proof.
  intros I N F. destruct f as [[[id a] b] fin].
  destruct (ack_spec _ _ _ _ _ _ _ F) as [(E & _)|(x & x1 & y & Lk & Hx & _ & _ & Hst & Out)].
  { eapply SInv_ext; [apply (fcore_eq _ _ E)|exact I]. }
  set (t := set_unacked_data (unacked_data s - (b - a)) (put id y s)) in *.
  assert (It : SInv t g).
  { apply (SInv_ext (put id y s)); [reflexivity|]. eapply sinv_kq; [exact I|].
    apply (kq_put s id (Some x) y Lk). intros Hq. exists x. split; [reflexivity|lia]. }
  destruct Out as [E|(_ & Hs0 & E)]; (eapply SInv_ext; [apply (fcore_eq _ _ E)|]); [exact It|].
  destruct (put_facts id y (unacked_data s - (b - a)) _ s Lk N) as (Nt & Lt).
  apply (sinv_remove t g id y It Nt Lt Hs0).
Qed.

Lemma reset_acked_sinv id s g s' r :
  SInv s g -> NoDup (keys s.(send)) -> do_reset_acked id s = Some (s', r) -> SInv s' g.
Proof.
  intros I N F. destruct (reset_acked_spec _ _ _ _ F) as [E|(x & Lk & Hx & E)];
    (eapply SInv_ext; [apply (fcore_eq _ _ E)|]); [exact I|].
  apply (sinv_remove s g id x I N Lk). lia.
Qed.

Record Full (s : State) (g : Ghost) : Prop := mkFull {
  f_inv : Inv s g; f_hinv : HInv s g; f_sinv : SInv s g }.

Lemma hs_ghost s' g g' :
  HInv s' g -> SInv s' g -> (g_phase g' <> 2 -> g_phase g <> 2) -> HInv s' g' /\ SInv s' g'.
Proof.
  intros H S Hp. split; [eapply hinv_ghost; eauto|eapply sinv_ghost; eauto].
Qed.

Lemma hinv_log s s' g : HInvL (log s) s' g -> log s' = log s -> HInv s' g.
Proof. unfold HInv. intros H E. rewrite E. exact H. Qed.

Lemma stay_mono g b : g_phase (stay g b) <> 2 -> g_phase g <> 2.
Proof. destruct (stay_phase g b); lia. Qed.

Lemma phase2_vacuous g g' : g_phase g' = 2 -> g_phase g' <> 2 -> g_phase g <> 2.
Proof. intros E H. destruct (H E). Qed.

Lemma params_sinv s g p g' : SInv s g -> Inv s g -> g.(g_phase) <> 2 -> SInv (do_set_params p s) g'.
Proof.
  intros S I Hp. apply (sinv_ghost _ g); [auto|]. eapply SInv_ext; [|exact S].
  destruct (i_early _ _ I Hp) as (M1 & _).
  unfold kcore. autorewrite with sp. rewrite (set_remote_limits_id _ _ _ (i_nodup _ _ I) M1). reflexivity.
Qed.

Lemma gstep_hs s g op :
  Full s g -> HInv (fst (gstep (s, g) op)) (snd (gstep (s, g) op))
              /\ SInv (fst (gstep (s, g) op)) (snd (gstep (s, g) op)).
Proof.
  intros [I H S]. pose proof (i_nodup _ _ I) as N. pose proof (i_side _ _ I) as Hsd.
  (* an operation whose [HInvL] lemma leaves the log alone *)
  assert (Hop : forall s' g', HInvL (log s) s' g /\ log s' = log s -> SInv s' g ->
                  (g_phase g' <> 2 -> g_phase g <> 2) -> HInv s' g' /\ SInv s' g').
  { intros s' g' (A & B) S' Hm. apply (hs_ghost s' g); [apply (hinv_log s); assumption|exact S'|exact Hm]. }
  (* an operation that writes neither [hcore], [kcore] nor the log *)
  assert (Hsame : forall s' g', fcore s' = fcore s -> (g_phase g' <> 2 -> g_phase g <> 2) ->
                    HInv s' g' /\ SInv s' g').
  { intros s' g' E Hm. destruct (fcore_eq _ _ E) as (E1 & E2 & E3).
    apply Hop; [split; [eapply HInvL_ext; eauto|exact E3]|eapply SInv_ext; eauto|exact Hm]. }
  apply (gstep_cases (fun s' g' => HInv s' g' /\ SInv s' g')).
  - auto.
  - intros p Hp V. split; [eapply params_hinv; eauto; lia|eapply params_sinv; eauto; lia].
  - intros p Hp V _. split; [eapply params_hinv; eauto; lia|eapply params_sinv; eauto; lia].
  - intros d s' r Hp O. unfold do_open, ok in O. pose proof (norm_dir_range d) as Hd.
    destruct (i_cnt _ _ I (norm_dir d) Hd) as (Hn & _).
    destruct (get_max (norm_dir d) s <=? get_next (norm_dir d) s).
    + injection O as <- _. apply Hsame; [view_eq|apply stay_mono].
    + destruct (lookup _ (send s)) eqn:L; [discriminate|]. injection O as <- _.
      apply Hop; [split; [|view_eq]| |apply stay_mono].
      * eapply HInvL_ext; [|apply (open_hinv (log s) s g (norm_dir d) H I Hd L)]. view_eq.
      * eapply SInv_ext; [|apply (sinv_open s g _ S (id_init_sid _ _ _ Hsd Hd (proj1 Hn)) L)]. view_eq.
  - intros id n s' r Hp Ha Hn O.
    apply Hop; [eapply write_hinv; eauto|eapply sinv_kq; [exact S|eapply write_kq; eauto]|apply stay_mono].
  - intros id s' r Hp Ha O.
    apply Hop; [eapply finish_hinv; eauto|eapply finish_sinv; eauto|apply stay_mono].
  - intros id s' r Hp Ha O.
    apply Hop; [eapply reset_hinv; eauto|eapply reset_sinv; eauto|apply stay_mono].
  - intros v Hp V. apply Hsame; [unfold do_max_data; view_eq|apply phase2_vacuous; reflexivity].
  - intros id v s' r Hp Hi Hv O.
    apply Hop; [eapply max_stream_data_hinv; eauto|eapply sinv_kq; [exact S|eapply max_stream_data_kq; eauto]
               |apply phase2_vacuous; reflexivity].
  - intros d c s' r Hp Hc O. unfold do_max_streams, ok in O.
    apply Hsame; [destr_if; injection O as <- _; view_eq|apply phase2_vacuous; reflexivity].
  - intros maxb s' r Hp O.
    apply (hs_ghost s' g); [eapply transmit_hinv; eauto|eapply sinv_kq; [exact S|eapply transmit_kq; eauto]|apply stay_mono].
  - intros k id a b fin l s' r Hp G O.
    pose proof (hinv_phase2 _ _ _ H) as H2.
    destruct (ack_hinv _ _ _ _ _ _ _ _ _ _ _ G H2 N eq_refl O) as (A1 & B1). split.
    + eapply hinv_ghost; [|unfold HInv; rewrite B1; exact A1]. auto.
    + eapply sinv_ghost; [apply phase2_vacuous; reflexivity|].
      eapply (ack_sinv _ (set_log l s) g); [eapply SInv_ext; [|exact S]; view_eq|exact N|exact O].
  - intros k f l s' r Hp G O. destruct f as [[[id a] b] fin].
    pose proof (hinv_phase2 _ _ _ H) as H2.
    destruct (lost_hinv _ _ _ _ _ _ _ _ _ _ _ G H2 eq_refl O) as (A1 & B1). split.
    + unfold HInv. rewrite B1. exact A1.
    + eapply sinv_ghost; [apply phase2_vacuous; reflexivity|].
      eapply sinv_kq; [eapply SInv_ext; [|exact S]|eapply lost_kq; exact O]. view_eq.
  - intros Hp. apply (hs_ghost s g); [exact H|exact S|apply phase2_vacuous; reflexivity].
  - intros w Hp. apply Hsame; [view_eq|apply stay_mono].
  - intros s' Hp R. pose proof (reject_inv s g s' I ltac:(lia) R) as I'.
    split; [exact (reject_hinv s g s' _ I Hp R I' eq_refl)|exact (reject_sinv s g s' _ S I Hp R I' eq_refl)].
  - intros s' r Hp O.
    apply Hop; [eapply poll_hinv; eauto|eapply sinv_kq; [exact S|eapply poll_kq; eauto]|apply stay_mono].
  - intros id code Hp Hi V.
    apply Hop; [apply stop_sending_hinv; exact H|eapply sinv_kq; [exact S|apply stop_sending_kq]
               |apply phase2_vacuous; reflexivity].
  - intros id s' r Hp O.
    apply Hop; [eapply reset_acked_hinv; eauto|eapply reset_acked_sinv; eauto|apply phase2_vacuous; reflexivity].
  - intros d s' r Hp O. unfold do_accept, ok in O.
    destruct (norm_dir d =? 0); [|injection O as <- _; apply Hsame; [reflexivity|apply phase2_vacuous; reflexivity]].
    destruct (next_remote_bi s =? next_reported_bi s);
      [injection O as <- _; apply Hsame; [reflexivity|apply phase2_vacuous; reflexivity]|].
    injection O as <- _. split.
    + apply hinv_phase2. apply (hinv_log s); [eapply HInvL_ext; [|exact H]; view_eq|reflexivity].
    + eapply SInv_ext; [|apply (sinv_accept s g S N Hsd)]. view_eq.
  - intros o Hp O. apply (hs_ghost s g); [exact H|exact S|apply stay_mono].
  - intros s' Hp Hs R.
    apply (hs_ghost s' g); [eapply retry_hinv; eauto|eapply sinv_kq; [exact S|apply retry_kq; exact R]|apply stay_mono].
Qed.

Lemma gstep_full s g op :
  Full s g -> Full (fst (gstep (s, g) op)) (snd (gstep (s, g) op)).
Proof.
  intros F. destruct (gstep_hs s g op F) as (H & S).
  constructor; [apply gstep_inv; exact (f_inv _ _ F)|exact H|exact S].
Qed.

Theorem grun_full : forall i s g, Full s g -> Full (fst (grun i (s, g))) (snd (grun i (s, g))).
Proof.
  intros i s g F. apply (fold_left_pres gstep (fun sg => Full (fst sg) (snd sg))); [|exact F].
  intros [s0 g0] op. apply gstep_full.
Qed.

Lemma full_start sd mrb sw p0 :
  0 <= sd <= 1 -> params_valid p0 = true ->
  Full (fst (start sd mrb sw p0)) (snd (start sd mrb sw p0)).
Proof.
  intros Hs Hv. pose proof (inv_start sd mrb sw p0 Hs Hv) as I.
  unfold start in *. cbn [fst snd] in *. rewrite start_eq in *.
  destruct (remote_bi_spec sd (Z.to_nat mrb) Hs) as (N & K & V & S).
  constructor; [exact I| |].
  - apply hinv_no_streams; cbn [log send unacked_data]; [exact N| | |reflexivity].
    + intros id x L. apply V in L. discriminate.
    + intros k f Hl. destruct k; discriminate.
  - constructor; unfold cnt, counted; cbn [send side next_reported_bi send_streams]; try lia.
    + rewrite filter_none; [cbn; lia|].
      intros k Hin. destruct (K _ Hin) as (j & Hj & ->).
      rewrite id_init_sid, id_index_sid by lia. destruct (1 - sd =? sd) eqn:E; [lia|].
      cbn [orb]. destruct (j <? 0) eqn:E2; [lia|]. apply Bool.andb_false_r.
    + intros k Hin _. destruct (K _ Hin) as (j & Hj & ->). apply id_dir_sid; lia.
    + intros id x L. apply V in L. discriminate.
Qed.

Theorem reachable_full sd mrb sw p0 i s g :
  0 <= sd <= 1 -> params_valid p0 = true ->
  grun i (start sd mrb sw p0) = (s, g) -> Full s g.
Proof.
  intros Hs Hv R. pose proof (grun_full i _ _ (full_start sd mrb sw p0 Hs Hv)) as H.
  unfold start in *. cbn [fst snd] in H. rewrite R in H. exact H.
Qed.
