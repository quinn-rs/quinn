(** C18 — lemmas about Model/AsyncConn.v: small maps, wake primitives, [wakes], [terminate], [drv_event],
    [drop_ref], [try_op], [release], [register]. *)
From QV Require Import Lib.Tac Model.AsyncConn Proofs.AsyncConnInv Proofs.RunInduction.
From Coq Require Import Arith.

Definition WakeOk (s : st) : Prop := forall t o, pend s t = Some o ->
  runnable s t = true \/ (registered s t o /\ cond s o = false).
(** [b] records exactly the tasks pending on [C k], and such [k] satisfy [h]; a [Notified] belongs
    to a pending operation on its [Notify] *)
Definition Owns (C : nat -> op) (p : nat -> option op) (b : nat -> option nat) (h : nat -> Prop) : Prop :=
  (forall t k, p t = Some (C k) -> b k = Some t /\ h k) /\
  (forall t k, b k = Some t -> p t = Some (C k)).
Definition Waits (p : nat -> option op) (w : notify -> nat -> bool) : Prop :=
  forall n t, w n t = true -> exists o, p t = Some o /\ notify_of o = Some n.
Definition TaskOk (s : st) : Prop :=
  Owns ORead (pend s) (rborrow s) (fun k => recv_h s k = true /\ all_read s k = false) /\
  Owns OWrite (pend s) (wborrow s) (fun k => send_h s k = true) /\
  Waits (pend s) (nwait s).
Definition BookOk (s : st) : Prop :=
  (forall k, recv_h s k = true -> seen s k = true) /\
  (forall k, send_h s k = true -> seen s k = true) /\
  (forall k, aget (br s) k <> None -> seen s k = true) /\
  (forall k, rx_end s k = true -> seen s k = true) /\
  (forall k, rx s k <> [] -> seen s k = true) /\
  (forall d k, In k (incoming s d) -> seen s k = true) /\
  (forall k, aget (br s) k <> None -> rx_end s k = false /\ rx s k = []) /\
  (forall k, all_read s k = true -> rx_end s k = true).
Definition RefOk (s : st) : Prop :=
  (driver_alive s = true -> refcnt s = nhandles s) /\
  (driver_alive s = false -> refcnt s = (nhandles s - 1)%Z).
Definition DataOk (s : st) : Prop :=
  (forall k, discarded s k = false -> arrived s k = delivered s k ++ rx s k) /\
  d_arrived s = d_delivered s ++ dq s /\
  (forall k, seen s k = false -> delivered s k = []).

(** [Inv0] by the fields its clauses read: a step inherits, by conversion, each group it does not write *)
Lemma Inv0_groups : forall s, Inv0 s <-> WakeOk s /\ TaskOk s /\ BookOk s /\ RefOk s /\ DataOk s.
Proof.
  intros s; split.
  - intros []; repeat apply conj; try assumption; intros t k Hp; split; eauto.
  - intros (? & ((R1 & ?) & (W1 & ?) & ?) & (? & ? & ? & ? & ? & ? & ? & ?) & (? & ?) & (? & ? & ?));
      constructor; try assumption; intros t k Hp; first [apply (R1 _ _ Hp) | apply (W1 _ _ Hp)].
Qed.
Lemma Inv0_of_groups : forall s, WakeOk s -> TaskOk s -> BookOk s -> RefOk s -> DataOk s -> Inv0 s.
Proof. intros; apply Inv0_groups; auto. Qed.

Lemma upd_same : forall A (f : nat -> A) k v, upd f k v k = v.
Proof. intros A f k v; unfold upd; now rewrite Nat.eqb_refl. Qed.
Lemma upd_other : forall A (f : nat -> A) k v x, x <> k -> upd f k v x = f x.
Proof. intros A f k v x Hne; unfold upd; apply Nat.eqb_neq in Hne; now rewrite Hne. Qed.
Lemma updb_same : forall A (f : bool -> A) k v, updb f k v k = v.
Proof. intros A f k v; unfold updb; now rewrite Bool.eqb_reflx. Qed.
Lemma updb_other : forall A (f : bool -> A) k v x, x <> k -> updb f k v x = f x.
Proof. intros A f k v x Hne; unfold updb; destruct (Bool.eqb x k) eqn:E; [apply Bool.eqb_prop in E; contradiction|reflexivity]. Qed.

Lemma aget_arem : forall m k k', aget (arem m k) k' = if Nat.eqb k k' then None else aget m k'.
Proof.
  induction m as [|[a v] m IH]; intros k k'; cbn [arem aget].
  - now destruct (Nat.eqb k k').
  - destruct (Nat.eqb a k) eqn:Eak.
    + apply Nat.eqb_eq in Eak; subst a. rewrite IH. destruct (Nat.eqb k k'); reflexivity.
    + cbn [aget]. rewrite IH. destruct (Nat.eqb a k') eqn:Eak'; [|reflexivity].
      apply Nat.eqb_eq in Eak'; subst a. rewrite Nat.eqb_sym in Eak. now rewrite Eak.
Qed.
Lemma aget_arem_same : forall m k, aget (arem m k) k = None.
Proof. intros m k; rewrite aget_arem, Nat.eqb_refl; reflexivity. Qed.
Lemma aget_arem_sub : forall m k k', aget (arem m k) k' <> None -> aget m k' <> None.
Proof. intros m k k'; rewrite aget_arem; destruct (Nat.eqb k k'); [congruence|auto]. Qed.
Lemma aget_aset : forall m k v k', aget (aset m k v) k' = if Nat.eqb k k' then Some v else aget m k'.
Proof.
  intros m k v k'; unfold aset; cbn [aget]. rewrite aget_arem. now destruct (Nat.eqb k k').
Qed.
Lemma aget_aval : forall m k t, aget m k = Some t -> aval m t = true.
Proof.
  induction m as [|[a v] m IH]; intros k t Hg; cbn [aget aval] in *; [discriminate|].
  destruct (Nat.eqb a k).
  - injection Hg as ->. now rewrite Nat.eqb_refl.
  - rewrite (IH _ _ Hg). apply orb_true_r.
Qed.
Lemma arem_none : forall m k, aget m k = None -> arem m k = m.
Proof.
  induction m as [|[a v] m IH]; intros k Hg; cbn [aget arem] in *; [reflexivity|].
  destruct (Nat.eqb a k); [discriminate|]. now rewrite IH.
Qed.

Lemma memb_rem_key : forall l k k', memb (rem_key l k) k' = memb l k' && negb (Nat.eqb k' k).
Proof.
  induction l as [|a l IH]; intros k k'; [reflexivity|].
  unfold rem_key; cbn [filter]. destruct (Nat.eqb a k) eqn:Eak; cbn [negb].
  - fold (rem_key l k). rewrite IH. unfold memb at 2; cbn [existsb]. fold (memb l k').
    apply Nat.eqb_eq in Eak; subst a. destruct (Nat.eqb k' k); cbn [negb orb]; [now rewrite !andb_false_r|reflexivity].
  - unfold memb at 1; cbn [existsb]. fold (rem_key l k). fold (memb (rem_key l k) k'). rewrite IH.
    unfold memb at 2; cbn [existsb]. fold (memb l k').
    destruct (Nat.eqb k' a) eqn:Eka; cbn [orb]; [|reflexivity].
    apply Nat.eqb_eq in Eka; subst a. rewrite Eak. reflexivity.
Qed.
Lemma memb_cons : forall l a k, memb (a :: l) k = Nat.eqb k a || memb l k.
Proof. reflexivity. Qed.

Lemma notify_eqb_spec : forall a b, reflect (a = b) (notify_eqb a b).
Proof.
  intros a b; destruct a, b; cbn [notify_eqb]; try (constructor; congruence).
  1, 2: destruct (Bool.eqb_spec d d0); constructor; congruence.
  destruct (Nat.eqb_spec s s0); constructor; congruence.
Qed.
Lemma notify_eqb_refl : forall n, notify_eqb n n = true.
Proof. intros n; destruct (notify_eqb_spec n n); congruence. Qed.
Lemma notify_eqb_neq : forall a b, a <> b -> notify_eqb a b = false.
Proof. intros a b Hne; destruct (notify_eqb_spec a b); [contradiction|reflexivity]. Qed.

Lemma Owns_add : forall C p b h t k, (forall k k', C k = C k' -> k = k') ->
  Owns C p b h -> p t = None -> b k = None -> h k ->
  Owns C (upd p t (Some (C k))) (upd b k (Some t)) h.
Proof.
  intros C p b h t k Hinj [O1 O2] Hp Hb Hh. split; intros t' k'; unfold upd.
  - destruct (Nat.eqb_spec t' t) as [E|E]; intros H.
    + injection H as H. apply Hinj in H. subst. rewrite Nat.eqb_refl. auto.
    + destruct (O1 _ _ H) as [H1 H2]. destruct (Nat.eqb_spec k' k); [congruence|auto].
  - destruct (Nat.eqb_spec k' k) as [E|E]; intros H.
    + injection H as <-. subst. rewrite Nat.eqb_refl. reflexivity.
    + pose proof (O2 _ _ H). destruct (Nat.eqb_spec t' t); [congruence|assumption].
Qed.
Lemma Owns_del : forall C p b h t k, (forall k k', C k = C k' -> k = k') ->
  Owns C p b h -> p t = Some (C k) -> Owns C (upd p t None) (upd b k None) h.
Proof.
  intros C p b h t k Hinj [O1 O2] Hp. split; intros t' k'; unfold upd.
  - destruct (Nat.eqb_spec t' t); [discriminate|]. intros H. destruct (O1 _ _ H) as [H1 H2]. split; [|exact H2].
    destruct (Nat.eqb_spec k' k); [|exact H1]. subst. rewrite (proj1 (O1 _ _ Hp)) in H1. congruence.
  - destruct (Nat.eqb_spec k' k); [discriminate|]. intros H. pose proof (O2 _ _ H) as H'.
    destruct (Nat.eqb_spec t' t); [|exact H']. subst. rewrite Hp in H'. injection H' as H'. apply Hinj in H'. congruence.
Qed.
Lemma Owns_pend : forall C p b h t v, Owns C p b h ->
  (forall k, p t <> Some (C k)) -> (forall k, v <> Some (C k)) -> Owns C (upd p t v) b h.
Proof.
  intros C p b h t v [O1 O2] Hp Hv. split; intros t' k'; unfold upd; destruct (Nat.eqb_spec t' t) as [E|E]; auto.
  - intros H. destruct (Hv _ H).
  - intros H. subst. destruct (Hp _ (O2 _ _ H)).
Qed.
Lemma Owns_free : forall C p b h k, Owns C p b h -> b k = None -> forall t, p t <> Some (C k).
Proof. intros C p b h k [O1 _] Hb t H. rewrite (proj1 (O1 _ _ H)) in Hb. discriminate. Qed.
Lemma Owns_handle : forall C p b h (h' : nat -> Prop), Owns C p b h ->
  (forall t k, b k = Some t -> h k -> h' k) -> Owns C p b h'.
Proof. intros C p b h h' [O1 O2] Hh. split; [|exact O2]. intros t k H. destruct (O1 _ _ H). eauto. Qed.

Definition on_notify (o : op) (n' : notify) : bool :=
  match notify_of o with Some n => notify_eqb n' n | None => false end.
Lemma Waits_add : forall p w t o, Waits p w -> p t = None ->
  Waits (upd p t (Some o)) (fun n' t' => if on_notify o n' && Nat.eqb t' t then true else w n' t').
Proof.
  intros p w t o W Hp n' t' H. unfold upd. destruct (Nat.eqb_spec t' t) as [E|E].
  - subst. exists o. split; [reflexivity|]. rewrite andb_true_r in H. unfold on_notify in H.
    destruct (notify_of o) as [n|]; [destruct (notify_eqb_spec n' n); [congruence|]|];
      destruct (W _ _ H) as (o' & H1 & _); congruence.
  - rewrite andb_false_r in H. exact (W _ _ H).
Qed.
Lemma Waits_del : forall p w t o, Waits p w -> p t = Some o ->
  Waits (upd p t None) (fun n' t' => if on_notify o n' && Nat.eqb t' t then false else w n' t').
Proof.
  intros p w t o W Hp n' t' H. unfold upd. destruct (Nat.eqb_spec t' t) as [E|E].
  - subst. exfalso. rewrite andb_true_r in H. destruct (on_notify o n') eqn:En; [discriminate|].
    destruct (W _ _ H) as (o' & H1 & H2). rewrite Hp in H1. injection H1 as <-.
    unfold on_notify in En. rewrite H2, notify_eqb_refl in En. discriminate.
  - rewrite andb_false_r in H. exact (W _ _ H).
Qed.

Declare Reduction ac_red :=
  cbn [connected hsconf err budget incoming seen rx rx_end wcredit w_end stop_done dq dspace
       arrived delivered discarded d_arrived d_delivered br bw nwait skeys pend runnable rborrow
       wborrow recv_h send_h all_read refcnt nhandles inner_closed drained driver_alive drv_waker
       drv_runnable drv_work ep_entry
       set_proto set_connected set_hsconf set_err set_budget set_incoming set_seen set_rx
       set_rx_end set_wcredit set_w_end set_stop_done set_dq set_dspace
       set_ghost set_arrived set_delivered set_discarded set_d_arrived set_d_delivered
       set_reg set_br set_bw set_nwait set_skeys
       set_tasks set_pend set_runnable set_rborrow set_wborrow
       set_h set_recv_h set_send_h set_all_read set_refs set_inner_closed set_drained set_drv
       notify_of].
Ltac cbn_st := match goal with |- ?G => let G' := eval ac_red in G in change G' end.
Ltac cbn_st_in H := let T := type of H in let T' := eval ac_red in T in change T' in H.

Lemma need_driver_nf : forall s,
  need_driver s = set_drv s (driver_alive s) false (drv_waker s || drv_runnable s) true.
Proof.
  intros s; unfold need_driver, wake_driver; cbn_st. destruct (drv_waker s); reflexivity.
Qed.

(** [b] is [a] after wake-ups only: whoever lost a registration is runnable *)
Inductive wakes (a : st) : st -> Prop :=
| wakes_intro : forall r b w n k,
    (forall t, runnable a t = true -> r t = true) ->
    (forall x t, aget (br a) x = Some t -> aget b x = Some t \/ r t = true) ->
    (forall x t, aget (bw a) x = Some t -> aget w x = Some t \/ r t = true) ->
    (forall m t, nwait a m t = true -> n m t = true \/ r t = true) ->
    (forall x, memb (skeys a) x = true ->
               memb k x = true \/ forall t, nwait a (NStopped x) t = true -> r t = true) ->
    (forall x, aget b x <> None -> aget (br a) x <> None) ->
    (forall m t, n m t = true -> nwait a m t = true) ->
    wakes a (set_reg (set_runnable a r) b w n k).

Lemma wakes_run : forall a b t, wakes a b -> runnable a t = true -> runnable b t = true.
Proof. intros a b t []; cbn_st; auto. Qed.
Lemma wakes_reg : forall a b t o, wakes a b -> registered a t o -> registered b t o \/ runnable b t = true.
Proof.
  intros a b t o [r b' w n k _ Hb Hw Hn Hk _ _].
  destruct o; cbn [registered notify_of]; cbn_st; auto.
  intros [H1 H2]. destruct (Hn _ _ H1); [|auto]. destruct (Hk _ H2); auto.
Qed.

Lemma set_reg_eta : forall s, set_reg (set_runnable s (runnable s)) (br s) (bw s) (nwait s) (skeys s) = s.
Proof. destruct s; reflexivity. Qed.
Lemma wakes_refl : forall s, wakes s s.
Proof. intros s. rewrite <- (set_reg_eta s) at 2. apply wakes_intro; auto. Qed.
Lemma wakes_trans : forall a b c, wakes a b -> wakes b c -> wakes a c.
Proof.
  intros a b c [r b1 w1 n1 k1 Hr Hb Hw Hn Hk Hb' Hn'] H. destruct H as [r2 b2 w2 n2 k2 Gr Gb Gw Gn Gk Gb' Gn'].
  revert Gr Gb Gw Gn Gk Gb' Gn'; cbn_st; intros.
  apply (wakes_intro a r2 b2 w2 n2 k2); auto.
  - intros x t H. destruct (Hb _ _ H); auto.
  - intros x t H. destruct (Hw _ _ H); auto.
  - intros m t H. destruct (Hn _ _ H); auto.
  - intros x H. destruct (Hk _ H) as [H1|H1].
    + destruct (Gk _ H1) as [H2|H2]; [auto|]. right. intros t Ht. destruct (Hn _ _ Ht); auto.
    + right. auto.
Qed.

Lemma wakes_frame : forall a b, wakes a b ->
  set_reg (set_runnable b (runnable a)) (br a) (bw a) (nwait a) (skeys a) = a.
Proof. intros a b []. exact (set_reg_eta a). Qed.

(** what decides whether connection and driver still run *)
Definition ctl (s : st) := (inner_closed s, driver_alive s, drv_waker s, drv_runnable s, drv_work s).
Lemma ctl_inner : forall a b, ctl a = ctl b -> inner_closed a = inner_closed b.
Proof. intros a b H. injection H; auto. Qed.
Lemma ctl_alive : forall a b, ctl a = ctl b -> driver_alive a = driver_alive b.
Proof. intros a b H. injection H; auto. Qed.
Lemma proto_eq_err : forall a b, proto_eq a b -> err a = err b.
Proof. intros a b H. unfold proto_eq in H. decompose [and] H. assumption. Qed.
Lemma proto_eq_ctl : forall a b, proto_eq a b -> ctl a = ctl b.
Proof. intros a b H. unfold proto_eq in H. decompose [and] H. unfold ctl. congruence. Qed.
Lemma ctl_wakes : forall a b, wakes a b -> ctl b = ctl a.
Proof. intros a b H. exact (f_equal ctl (wakes_frame a b H)). Qed.
Lemma err_wakes : forall a b, wakes a b -> err b = err a.
Proof. intros a b H. exact (f_equal err (wakes_frame a b H)). Qed.

Lemma wakes_wake_reader : forall s k, wakes s (wake_reader s k).
Proof.
  intros s k. unfold wake_reader. destruct (aget (br s) k) as [t0|] eqn:E; [|apply wakes_refl].
  apply wakes_intro; cbn_st; auto.
  - intros t H. unfold upd. destruct (Nat.eqb t t0); auto.
  - intros x t H. rewrite aget_arem. destruct (Nat.eqb_spec k x) as [->|]; [|auto].
    right. rewrite E in H. injection H as ->. apply upd_same.
  - intros x. apply aget_arem_sub.
Qed.
Lemma br_wake_reader : forall s k, br (wake_reader s k) = arem (br s) k.
Proof.
  intros s k. unfold wake_reader. destruct (aget (br s) k) eqn:E; [reflexivity|].
  symmetry. apply arem_none, E.
Qed.

Lemma wakes_wake_writer : forall s k, wakes s (wake_writer s k).
Proof.
  intros s k. unfold wake_writer. destruct (aget (bw s) k) as [t0|] eqn:E; [|apply wakes_refl].
  apply wakes_intro; cbn_st; auto.
  - intros t H. unfold upd. destruct (Nat.eqb t t0); auto.
  - intros x t H. rewrite aget_arem. destruct (Nat.eqb_spec k x) as [->|]; [|auto].
    right. rewrite E in H. injection H as ->. apply upd_same.
Qed.
Lemma wakes_wake_all_readers : forall s, wakes s (wake_all_readers s).
Proof.
  intros s. apply wakes_intro; cbn_st; auto.
  - intros t H; rewrite H; reflexivity.
  - intros x t H. right. rewrite (aget_aval _ _ _ H). apply orb_true_r.
Qed.
Lemma wakes_wake_all_writers : forall s, wakes s (wake_all_writers s).
Proof.
  intros s. apply wakes_intro; cbn_st; auto.
  - intros t H; rewrite H; reflexivity.
  - intros x t H. right. rewrite (aget_aval _ _ _ H). apply orb_true_r.
Qed.
Lemma wakes_notify_waiters : forall s m, wakes s (notify_waiters s m).
Proof.
  intros s m. apply wakes_intro; cbn_st; auto.
  - intros t H; rewrite H; reflexivity.
  - intros m' t H. destruct (notify_eqb_spec m' m) as [->|]; [|auto].
    right. rewrite H. apply orb_true_r.
  - intros m' t. destruct (notify_eqb m' m); [discriminate|auto].
Qed.
Lemma wakes_wake_stopped : forall s k, wakes s (wake_stopped s k).
Proof.
  intros s k. unfold wake_stopped. destruct (memb (skeys s) k) eqn:E; [|apply wakes_refl].
  unfold notify_waiters. apply wakes_intro; cbn_st; auto.
  - intros t H; rewrite H; reflexivity.
  - intros m t H. destruct (notify_eqb_spec m (NStopped k)) as [->|]; [|auto].
    right. rewrite H. apply orb_true_r.
  - intros x H. rewrite memb_rem_key, H. destruct (Nat.eqb_spec x k) as [->|]; [|left; reflexivity].
    right. intros t Ht. rewrite Ht. apply orb_true_r.
  - intros m t. destruct (notify_eqb m (NStopped k)); [discriminate|auto].
Qed.
Lemma wakes_wake_all_stopped : forall s, wakes s (wake_all_stopped s).
Proof.
  intros s. apply wakes_intro; cbn_st; auto.
  - intros t H; rewrite H; reflexivity.
  - intros m t H. destruct m; auto. destruct (memb (skeys s) s0) eqn:E; [|auto].
    right. apply orb_true_iff; right. apply existsb_exists.
    apply existsb_exists in E as (x & Hin & Hx). apply Nat.eqb_eq in Hx; subst x. eauto.
  - intros x H. right. intros t Ht. apply orb_true_iff; right. apply existsb_exists.
    apply existsb_exists in H as (y & Hin & Hy). apply Nat.eqb_eq in Hy; subst y. eauto.
  - intros m t. destruct m; auto. destruct (memb (skeys s) s0); [discriminate|auto].
Qed.

Lemma runnable_wake_reader : forall s k t, aget (br s) k = Some t -> runnable (wake_reader s k) t = true.
Proof. intros s k t H. unfold wake_reader. rewrite H. apply upd_same. Qed.
Lemma runnable_wake_writer : forall s k t, aget (bw s) k = Some t -> runnable (wake_writer s k) t = true.
Proof. intros s k t H. unfold wake_writer. rewrite H. apply upd_same. Qed.
Lemma runnable_notify_waiters : forall s n t, nwait s n t = true -> runnable (notify_waiters s n) t = true.
Proof. intros s n t H. unfold notify_waiters; cbn_st. rewrite H. apply orb_true_r. Qed.
Lemma runnable_wake_stopped : forall s k t,
  nwait s (NStopped k) t = true -> memb (skeys s) k = true -> runnable (wake_stopped s k) t = true.
Proof. intros s k t H Hm. unfold wake_stopped. rewrite Hm. cbn_st. apply runnable_notify_waiters, H. Qed.

(** [terminate]: set the error, then wake-ups only; no registration survives *)
Lemma wakes_terminate : forall s c, wakes (set_err s (Some c)) (terminate s c).
Proof.
  intros s c. unfold terminate. cbv zeta.
  do 2 (eapply wakes_trans; [|apply wakes_notify_waiters]).
  eapply wakes_trans; [|apply wakes_wake_all_stopped].
  do 7 (eapply wakes_trans; [|apply wakes_notify_waiters]).
  eapply wakes_trans; [apply wakes_wake_all_writers|apply wakes_wake_all_readers].
Qed.
Lemma registered_terminate : forall s c t o, ~ registered (terminate s c) t o.
Proof.
  intros s c t o. destruct o as [| | |[]|[]|k|k|k| | |]; lazy; try discriminate. intros [_ H]; discriminate.
Qed.
Lemma runnable_terminate : forall s c t o,
  runnable s t = true \/ registered s t o -> runnable (terminate s c) t = true.
Proof.
  intros s c t o [H|H].
  - exact (wakes_run _ _ t (wakes_terminate s c) H).
  - destruct (wakes_reg _ _ t o (wakes_terminate s c) H) as [H'|H']; [|exact H'].
    destruct (registered_terminate _ _ _ _ H').
Qed.

Lemma drv_event_frame : forall s e,
  ctl (drv_event s e) = ctl s /\ err (drv_event s e) = match e with PLost c => Some c | _ => err s end.
Proof.
  intros s e. destruct e; cbn [drv_event];
    repeat match goal with |- context [if ?b then _ else _] => destruct b end;
    try (destruct o; cbn [notify_of]);
    rewrite ?(ctl_wakes _ _ (wakes_wake_reader _ _)), ?(ctl_wakes _ _ (wakes_wake_writer _ _)),
            ?(ctl_wakes _ _ (wakes_wake_stopped _ _)),
            ?(err_wakes _ _ (wakes_wake_reader _ _)), ?(err_wakes _ _ (wakes_wake_writer _ _)),
            ?(err_wakes _ _ (wakes_wake_stopped _ _)); split; reflexivity.
Qed.

Lemma ctl_drv_events : forall evs s, ctl (fold_left drv_event evs s) = ctl s.
Proof.
  intros evs s. apply (fold_left_pres drv_event (fun a => ctl a = ctl s)); [|reflexivity].
  intros a e H. rewrite <- H. apply drv_event_frame.
Qed.

Lemma close_conn_nf : forall s,
  close_conn s =
  set_drv (terminate (set_inner_closed s true) LOCALLY_CLOSED)
          (driver_alive s) false (drv_waker s || drv_runnable s) true.
Proof. intros s. unfold close_conn. rewrite need_driver_nf. reflexivity. Qed.

(** the guard of the stream calls of [step] *)
Lemma guarded_call : forall (P : st -> Prop) (s s' : st) (h : bool) (b : option nat),
  P s -> (h = true -> b = None -> P s') ->
  P (fst (if h then match b with Some _ => (s, NotOk) | None => (s', Pending) end else (s, NotOk))).
Proof. intros P s s' h b H H'. destruct h; [destruct b|]; auto. Qed.

Lemma drop_ref_cases : forall (P : st -> Prop) (s : st) (h : bool),
  let s1 := set_refs s (refcnt s - 1)%Z (if h then nhandles s - 1 else nhandles s)%Z in
  P s1 -> (Z.ltb 1 (refcnt s) = false -> inner_closed s = false -> P (close_conn s1)) -> P (drop_ref s h).
Proof.
  intros P s h s1 H1 H2. unfold drop_ref. fold s1. change (inner_closed s1) with (inner_closed s).
  destruct (Z.ltb 1 (refcnt s)); [exact H1|]. destruct (inner_closed s); auto.
Qed.

Lemma try_op_none : forall s o n, try_op s o n = None <-> cond s o = false.
Proof.
  intros s o n; destruct o; cbn [try_op cond]; unfold closed;
    repeat match goal with |- context [match ?x with _ => _ end] => destruct x eqn:? end;
    cbn [nonempty orb]; split; intros H; try discriminate; try reflexivity; rewrite ?orb_true_r, ?orb_false_r in H; cbn [orb] in H; congruence.
Qed.

Lemma pend_release : forall s t t', pend (release s t) t' = if Nat.eqb t' t then None else pend s t'.
Proof.
  intros s t t'; unfold release. destruct (pend s t) as [o|] eqn:Ep.
  - destruct o; reflexivity.
  - destruct (Nat.eqb_spec t' t); [now subst|reflexivity].
Qed.

Lemma release_frame : forall s t,
  runnable (release s t) = runnable s /\ forall o, cond (release s t) o = cond s o.
Proof.
  intros s t. unfold release. destruct (pend s t) as [o|]; [destruct o; cbn [notify_of]|];
    split; try reflexivity; intros o'; destruct o'; reflexivity.
Qed.
Lemma registered_release : forall s t t' o, t' <> t -> registered s t' o -> registered (release s t) t' o.
Proof.
  intros s t t' o Hne H. apply Nat.eqb_neq in Hne. unfold release. destruct (pend s t) as [o0|]; [|exact H].
  destruct o0; cbn [notify_of]; destruct o; cbn [registered notify_of] in *; cbn_st;
    rewrite ?Hne, ?andb_false_r; exact H.
Qed.

Lemma register_frame : forall s t o,
  pend (register s t o) = upd (pend s) t (Some o) /\ runnable (register s t o) = runnable s /\
  forall o', cond (register s t o) o' = cond s o'.
Proof.
  intros s t o. unfold register. destruct o; cbn [notify_of]; try destruct (memb _ _);
    repeat split; intros o'; destruct o'; reflexivity.
Qed.
Lemma registered_register : forall s t o, registered (register s t o) t o.
Proof.
  intros s t o. unfold register.
  destruct o; cbn [registered notify_of]; try destruct (memb _ _) eqn:Em; cbn_st;
    rewrite ?aget_aset, ?notify_eqb_refl, ?memb_cons, ?Nat.eqb_refl; auto.
Qed.
(** only the waker slot of the same stream is overwritten *)
Lemma registered_register_other : forall s t o t' o', t' <> t -> registered s t' o' ->
  (notify_of o = None -> o' <> o) -> registered (register s t o) t' o'.
Proof.
  intros s t o t' o' Hne Hr Hoo. apply Nat.eqb_neq in Hne. unfold register.
  destruct o; cbn [notify_of] in *; try destruct (memb _ _) eqn:Em;
    destruct o'; cbn [registered notify_of] in *; cbn_st; rewrite ?Hne, ?andb_false_r, ?memb_cons; try exact Hr.
  - rewrite aget_aset. destruct (Nat.eqb_spec s0 s1) as [->|]; [destruct (Hoo eq_refl eq_refl)|exact Hr].
  - rewrite aget_aset. destruct (Nat.eqb_spec s0 s1) as [->|]; [destruct (Hoo eq_refl eq_refl)|exact Hr].
  - destruct Hr as [H1 H2]. rewrite H2, orb_true_r. auto.
Qed.
