(** Proofs about the model of [TimerTable] and the [handle_timeout] dispatch loop (C20): settling
    under the handler contracts (the PTO handler meets the back-off one), [next_timeout] as the
    minimum, equivariance under a shift of all instants. *)
From QV Require Import Lib.Tac Lib.Corr Model.TimerTable.
Open Scope Z_scope.

Lemma upd_length tb i v : length (upd tb i v) = length tb.
Proof. revert i; induction tb as [|x r IH]; intros [|i]; cbn [upd length]; auto. Qed.

Lemma get_upd_same tb i v : (i < length tb)%nat -> get (upd tb i v) i = v.
Proof.
  unfold get. revert i; induction tb as [|x r IH]; intros [|i] Hl; cbn [upd length nth] in *; try lia; auto.
  apply IH; lia.
Qed.

Lemma get_upd_other tb i j v : i <> j -> get (upd tb i v) j = get tb j.
Proof.
  unfold get. revert i j; induction tb as [|x r IH]; intros [|i] [|j] Hn; cbn [upd nth]; auto; try congruence.
Qed.

Lemma get_out_of_range tb j : (length tb <= j)%nat -> get tb j = None.
Proof. intro Hl. unfold get. apply nth_overflow; exact Hl. Qed.

Lemma upd_out_of_range tb i v : (length tb <= i)%nat -> upd tb i v = tb.
Proof.
  revert i; induction tb as [|x r IH]; intros [|i] Hl; cbn [upd length] in *; auto; try lia.
  f_equal. apply IH; lia.
Qed.

Theorem next_timeout_is_min tb :
  match next_timeout tb with
  | None => forall j, get tb j = None
  | Some m => (exists j, get tb j = Some m) /\ forall j x, get tb j = Some x -> m <= x
  end.
Proof.
  unfold get. induction tb as [|y r IH]; cbn [next_timeout]; [intros [|j]; reflexivity|].
  destruct y as [y|], (next_timeout r) as [m|]; cbn [omin].
  - destruct IH as [[j Hj] Hlow]. split.
    + destruct (Z.min_spec y m) as [[_ ->]|[_ ->]]; [exists O; reflexivity | exists (S j); exact Hj].
    + intros [|k] x Hg; cbn [nth] in Hg; [injection Hg as <-; lia|]. apply Hlow in Hg. lia.
  - split; [exists O; reflexivity|].
    intros [|k] x Hg; cbn [nth] in Hg; [injection Hg as <-; lia|]. rewrite IH in Hg. discriminate.
  - destruct IH as [[j Hj] Hlow]. split; [exists (S j); exact Hj|].
    intros [|k] x Hg; cbn [nth] in Hg; [discriminate|]. apply (Hlow k x Hg).
  - intros [|k]; [reflexivity | apply IH].
Qed.

Lemma future_iff tb now : future tb now <-> forall j, is_expired tb j now = false.
Proof.
  unfold future, is_expired. pose proof (next_timeout_is_min tb) as Hm.
  destruct (next_timeout tb) as [m|].
  - destruct Hm as [[j0 Hj0] Hlow]. split.
    + intros Hf j. destruct (get tb j) as [x|] eqn:Eg; [|reflexivity]. apply Hlow in Eg. lia.
    + intros Ha. specialize (Ha j0). rewrite Hj0 in Ha. lia.
  - split; [|trivial]. intros _ j. rewrite Hm. reflexivity.
Qed.

Definition settled (now : Z) (tb : table) (j : nat) : Prop :=
  get tb j = None \/ exists x, get tb j = Some x /\ now < x.

Lemma slot_ok_settled now a b :
  slot_ok now a b -> (a = None \/ exists x, a = Some x /\ now < x) ->
  (b = None \/ exists x, b = Some x /\ now < x).
Proof. intros [E|[E|[x [E Hx]]]] Hs; subst; eauto. Qed.

Lemma not_expired_settled now tb j : is_expired tb j now = false -> settled now tb j.
Proof.
  unfold is_expired, settled. destruct (get tb j) as [x|]; [|auto].
  intro E. right. exists x. split; [reflexivity | lia].
Qed.

Lemma all_settled_future now tb : (forall j, settled now tb j) -> future tb now.
Proof.
  intro Ha. apply future_iff. intro j. unfold is_expired.
  destruct (Ha j) as [E|[x [E Hx]]]; rewrite E; [reflexivity | lia].
Qed.

Lemma get_stop_same tb i : get (stop tb i) i = None.
Proof.
  unfold stop. destruct (Nat.lt_ge_cases i (length tb)) as [Hl|Hl].
  - apply get_upd_same, Hl.
  - apply get_out_of_range. rewrite upd_length. exact Hl.
Qed.

Lemma settled_stop now tb i j : j = i \/ settled now tb j -> settled now (stop tb i) j.
Proof.
  intros Hj. destruct (Nat.eq_dec i j) as [<-|Hne]; [left; apply get_stop_same|].
  unfold settled, stop. rewrite get_upd_other by exact Hne. destruct Hj; [congruence|assumption].
Qed.

Lemma slot_ok_set now tb i t : now < t -> forall j, slot_ok now (get tb j) (get (set tb i t) j).
Proof.
  intros Ht j. unfold set. destruct (Nat.eq_dec i j) as [<-|Hne]; [|left; apply get_upd_other, Hne].
  destruct (Nat.lt_ge_cases i (length tb)) as [Hl|Hl].
  - right; right. rewrite get_upd_same by exact Hl. eauto.
  - left. rewrite upd_out_of_range by exact Hl. reflexivity.
Qed.

Section Dispatch.
  Variable H : Type.
  Variable handler : nat -> Z -> H * table -> H * table.

  Lemma dispatch_noop ts now s :
    (forall j, is_expired (snd s) j now = false) -> dispatch H handler ts now s = s.
  Proof.
    intro Ha. induction ts as [|i r IH]; cbn [dispatch]; [reflexivity|].
    rewrite Ha. exact IH.
  Qed.

  (** a call with no expired timer changes nothing and runs no handler *)
  Theorem spurious_timeout_noop now s :
    future (snd s) now -> handle_timeout H handler now s = s.
  Proof. intro Hf. apply dispatch_noop. apply future_iff; exact Hf. Qed.

  Lemma iter_noop n now s : future (snd s) now -> iter H handler n now s = s.
  Proof.
    revert s; induction n as [|n IH]; intros s Hf; cbn [iter]; [reflexivity|].
    rewrite spurious_timeout_noop by exact Hf. apply IH; exact Hf.
  Qed.

  (** invariant of the loop: the measure has not grown, and either every timer already visited is
      settled or the measure has dropped *)
  Lemma dispatch_backoff mu now Inv ts done s m0 :
    contract_b H handler mu now Inv ->
    Inv (fst s) -> (mu (fst s) <= m0)%nat ->
    ((forall j, In j done -> settled now (snd s) j) \/ (mu (fst s) < m0)%nat) ->
    let s' := dispatch H handler ts now s in
    Inv (fst s') /\ length (snd s') = length (snd s) /\ (mu (fst s') <= m0)%nat /\
    ((forall j, In j (done ++ ts) -> settled now (snd s') j) \/ (mu (fst s') < m0)%nat).
  Proof.
    intros Hc. revert done s; induction ts as [|i r IH]; intros done s Hi Hm Hd; cbn [dispatch].
    { rewrite app_nil_r. auto. }
    specialize (IH (done ++ [i])). rewrite <- app_assoc in IH. cbn [app] in IH.
    destruct (is_expired (snd s) i now) eqn:Ee.
    - destruct s as [h tb]; cbn [fst snd] in *.
      destruct (Hc i h (stop tb i) Hi) as (Hi' & Hlen & Hmono & Hor).
      unfold stop in Hlen. rewrite upd_length in Hlen. rewrite <- Hlen.
      apply IH; [exact Hi' | lia |].
      destruct Hd as [Hd|Hd], Hor as [Hslots|Hlt]; try (right; lia).
      left. intros k Hk. apply (slot_ok_settled now _ _ (Hslots k)), settled_stop.
      apply in_app_or in Hk as [Hk|[->|[]]]; auto.
    - apply IH; [exact Hi | exact Hm |].
      destruct Hd as [Hd|Hd]; [left|right; exact Hd].
      intros k Hk. apply in_app_or in Hk as [Hk|[<-|[]]]; [apply Hd, Hk | apply not_expired_settled, Ee].
  Qed.

  Lemma one_call mu now Inv (s : H * table) :
    contract_b H handler mu now Inv -> Inv (fst s) -> length (snd s) = NTIMERS ->
    let s' := handle_timeout H handler now s in
    Inv (fst s') /\ length (snd s') = NTIMERS /\ (mu (fst s') <= mu (fst s))%nat /\
    (future (snd s') now \/ (mu (fst s') < mu (fst s))%nat).
  Proof.
    intros Hc Hi Hl. unfold handle_timeout.
    destruct (dispatch_backoff mu now Inv (seq 0 NTIMERS) [] s (mu (fst s)) Hc Hi (le_n _))
      as (Hi' & Hlen & Hm & Hor).
    { left. intros k []. }
    rewrite Hl in Hlen. split; [exact Hi'|]. split; [exact Hlen|]. split; [exact Hm|].
    destruct Hor as [Hs|Hlt]; [left|right; exact Hlt].
    apply all_settled_future. intro j. destruct (Nat.lt_ge_cases j NTIMERS) as [Hj|Hj].
    - apply Hs, in_seq. lia.
    - left. apply get_out_of_range. rewrite Hlen. exact Hj.
  Qed.

  Hypothesis Hc : contract H handler.

  (** the strict contract is the back-off contract with nothing to count down *)
  Lemma contract_bounded now : contract_b H handler (fun _ => O) now (fun _ => True).
  Proof. intros i h tb _. destruct (Hc i now h tb) as [Hlen Hslots]. auto. Qed.

  (** under the strict handler contract ONE call of handle_timeout leaves the next timeout
      unset or strictly after [now] *)
  Theorem timeouts_settle now s :
    length (snd s) = NTIMERS -> future (snd (handle_timeout H handler now s)) now.
  Proof.
    intro Hl. destruct (one_call _ now _ s (contract_bounded now) I Hl) as (_ & _ & _ & [Hf|Hlt]).
    - exact Hf.
    - inversion Hlt.
  Qed.
End Dispatch.

Section Bounded.
  Variable H : Type.
  Variable handler : nat -> Z -> H * table -> H * table.
  Variable mu : H -> nat.
  Variable now : Z.
  Variable Inv : H -> Prop.
  Hypothesis Hc : contract_b H handler mu now Inv.

  (** servicing timeouts repeatedly at one instant reaches, within [mu + 1] calls, a state whose
      next timeout lies strictly in the future *)
  Theorem timeouts_settle_bounded n s :
    Inv (fst s) -> length (snd s) = NTIMERS -> (mu (fst s) < n)%nat ->
    future (snd (iter H handler n now s)) now.
  Proof.
    revert s; induction n as [|n IH]; intros s Hi Hl Hn; [lia|].
    cbn [iter]. destruct (one_call H handler mu now Inv s Hc Hi Hl) as (Hi' & Hl' & Hmono & [Hf|Hlt]).
    - rewrite iter_noop by exact Hf. exact Hf.
    - apply IH; [exact Hi' | exact Hl' |]. unfold table in *. lia.
  Qed.
End Bounded.

(** * The concrete PTO handler meets the back-off contract when service is late by less than the
    largest back-off: [now - last_ae < base * 2^E] (carried by [pto_inv]). *)
Lemma pto_handler_contract (E now : Z) :
  contract_b Pto (pto_handler E) (pto_mu E now) now (pto_inv E now).
Proof.
  intros i h tb [Hc [Hb Hlate]]. destruct i as [|i]; cbn [pto_handler fst snd].
  - split; [unfold pto_inv; cbn [pto_count last_ae pto_base]; lia|].
    split; [unfold set; apply upd_length|].
    unfold pto_mu, pto_deadline; cbn [pto_count last_ae pto_base].
    assert (Hp1 : 2 ^ Z.min (pto_count h) E <= 2 ^ Z.min (pto_count h + 1) E) by (apply Z.pow_le_mono_r; lia).
    assert (Hd : last_ae h + pto_base h * 2 ^ Z.min (pto_count h) E
                 <= last_ae h + pto_base h * 2 ^ Z.min (pto_count h + 1) E) by nia.
    destruct (now <? last_ae h + pto_base h * 2 ^ Z.min (pto_count h + 1) E) eqn:E1.
    + split; [lia|]. left. apply slot_ok_set. lia.
    + (* still late: the count was below E (else the lateness bound is contradicted), so the
         measure drops *)
      assert (Hlt : pto_count h < E).
      { destruct (Z.lt_ge_cases (pto_count h) E) as [Hx|Hx]; [exact Hx|].
        rewrite Z.min_r in E1 by lia. lia. }
      destruct (now <? last_ae h + pto_base h * 2 ^ Z.min (pto_count h) E) eqn:E0; [lia|].
      split; [lia|]. right. lia.
  - split; [exact (conj Hc (conj Hb Hlate))|]. split; [reflexivity|]. split; [lia|].
    left. intro j. left. reflexivity.
Qed.

Lemma pto_mu_bound E now h : 0 <= pto_count h -> (pto_mu E now h <= Z.to_nat E)%nat.
Proof. intros Hc. unfold pto_mu. destruct (now <? pto_deadline E h); lia. Qed.

(** PTO serviced late by less than [base * 2^E]: at most [E + 1] calls at one instant *)
Theorem pto_settles E now h tb :
  pto_inv E now h -> length tb = NTIMERS ->
  future (snd (iter Pto (pto_handler E) (S (Z.to_nat E)) now (h, tb))) now.
Proof.
  intros Hi Hl.
  apply (timeouts_settle_bounded Pto (pto_handler E) (pto_mu E now) now (pto_inv E now)
           (pto_handler_contract E now) (S (Z.to_nat E)) (h, tb) Hi Hl).
  cbn [fst]. destruct Hi as [Hc _]. pose proof (pto_mu_bound E now h Hc). lia.
Qed.

Theorem poll_on_empty_queues_is_noop ee :
  poll (mkQ [] [] None ee) = (None, mkQ [] [] None ee)
  /\ forall q, ep_events q = [] -> poll_endpoint_events q = (None, q).
Proof.
  split; [reflexivity|]. intros q Hq. unfold poll_endpoint_events. rewrite Hq. reflexivity.
Qed.

Lemma shift_upd d tb i v : shift_table d (upd tb i v) = upd (shift_table d tb) i (shift_o d v).
Proof.
  unfold shift_table. revert i; induction tb as [|x r IH]; intros [|i]; cbn [upd map]; auto.
  f_equal. apply IH.
Qed.

Lemma shift_get d tb i : get (shift_table d tb) i = shift_o d (get tb i).
Proof.
  unfold get, shift_table. revert i; induction tb as [|x r IH]; intros [|i]; cbn [map nth]; auto.
Qed.

Lemma shift_omin d a b : omin (shift_o d a) (shift_o d b) = shift_o d (omin a b).
Proof. destruct a, b; cbn [omin shift_o]; auto. f_equal. lia. Qed.

Lemma shift_next d tb : next_timeout (shift_table d tb) = shift_o d (next_timeout tb).
Proof.
  unfold shift_table. induction tb as [|x r IH]; cbn [map next_timeout]; auto.
  rewrite IH. apply shift_omin.
Qed.

Lemma shift_expired d tb i a : is_expired (shift_table d tb) i (a + d) = is_expired tb i a.
Proof.
  unfold is_expired. rewrite shift_get. destruct (get tb i); cbn [shift_o]; auto.
  destruct (z <=? a) eqn:E; lia.
Qed.

(** shifting every supplied instant by [d] shifts every returned instant by [d] and changes
    nothing else *)
Theorem shift_equivariant d tb op :
  step (shift_table d tb) (shift_op d op)
  = (shift_table d (fst (step tb op)), shift_out d (snd (step tb op))).
Proof.
  destruct op; cbn [step shift_op shift_out fst snd].
  - unfold set. rewrite shift_upd. reflexivity.
  - unfold stop. rewrite shift_upd. reflexivity.
  - rewrite shift_get. reflexivity.
  - rewrite shift_next. reflexivity.
  - rewrite shift_expired. reflexivity.
  - reflexivity.
Qed.

Lemma shift_equivariant_fold d l : forall tb acc,
  let f := fun acc op => let '(tb', o) := step (fst acc) op in (tb', snd acc ++ [o]) in
  fold_left f (map (shift_op d) l) (shift_table d tb, map (shift_out d) acc)
  = (shift_table d (fst (fold_left f l (tb, acc))), map (shift_out d) (snd (fold_left f l (tb, acc)))).
Proof.
  induction l as [|op l IH]; intros tb acc; cbn [map fold_left fst snd]; [reflexivity|].
  rewrite shift_equivariant. destruct (step tb op) as [tb' o]. cbn [fst snd].
  change [shift_out d o] with (map (shift_out d) [o]). rewrite <- map_app. apply IH.
Qed.

(** the dispatch loop commutes with the shift when the handlers do *)
Section DispatchShift.
  Variable H : Type.
  Variable shift_h : Z -> H -> H.
  Variable handler : nat -> Z -> H * table -> H * table.
  Hypothesis handler_equivariant : forall d i now h tb,
    handler i (now + d) (shift_h d h, shift_table d tb)
    = (shift_h d (fst (handler i now (h, tb))), shift_table d (snd (handler i now (h, tb)))).

  Theorem handle_timeout_equivariant d now h tb :
    handle_timeout H handler (now + d) (shift_h d h, shift_table d tb)
    = (shift_h d (fst (handle_timeout H handler now (h, tb))),
       shift_table d (snd (handle_timeout H handler now (h, tb)))).
  Proof.
    unfold handle_timeout. generalize (seq 0 NTIMERS) as ts.
    intro ts; revert h tb; induction ts as [|i r IH]; intros h tb; cbn [dispatch fst snd]; [reflexivity|].
    rewrite shift_expired. destruct (is_expired tb i now).
    - replace (stop (shift_table d tb) i) with (shift_table d (stop tb i))
        by (unfold stop; rewrite shift_upd; reflexivity).
      rewrite handler_equivariant.
      destruct (handler i now (h, stop tb i)) as [h' tb'] eqn:Eh. cbn [fst snd]. apply IH.
    - apply IH.
  Qed.
End DispatchShift.
