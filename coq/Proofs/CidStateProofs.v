(** Model/CidState.v (C03): local connection-ID bookkeeping driven by peer-chosen
    RETIRE_CONNECTION_ID sequence numbers never panics, [active_seq] stays within the issued
    numbers, and un-issued retirements are rejected or, at [sequence == issued], change nothing. *)
From QV Require Import Lib.Tac Lib.Corr Model.CidState.
Import CidState.
Open Scope Z_scope.

Fixpoint asc_in (lo hi : Z) (l : list Z) : Prop :=
  match l with
  | [] => True
  | x :: r => lo <= x < hi /\ asc_in (x + 1) hi r
  end.

Lemma asc_in_weaken : forall l lo hi lo' hi',
  asc_in lo hi l -> lo' <= lo -> hi <= hi' -> asc_in lo' hi' l.
Proof.
  induction l as [|x l IH]; intros lo hi lo' hi' H Hl Hh; cbn [asc_in] in *; [exact I|].
  destruct H as [H1 H2]. split; [lia|]. eapply IH; [exact H2|lia|lia].
Qed.

Lemma asc_in_length : forall l lo hi, asc_in lo hi l -> lo <= hi -> Z.of_nat (length l) <= hi - lo.
Proof.
  induction l as [|x l IH]; intros lo hi H Hle; cbn [asc_in length] in *; [lia|].
  destruct H as [H1 H2]. specialize (IH (x + 1) hi H2). lia.
Qed.

Lemma asc_in_In : forall l lo hi x, asc_in lo hi l -> In x l -> lo <= x < hi.
Proof.
  induction l as [|y l IH]; intros lo hi x H Hin; cbn [asc_in In] in *; [contradiction|].
  destruct H as [H1 H2]. destruct Hin as [->|Hin]; [exact H1|].
  specialize (IH _ _ _ H2 Hin). lia.
Qed.

Lemma set_add_asc : forall l lo hi x,
  asc_in lo hi l -> lo <= x < hi -> asc_in lo hi (set_add x l).
Proof.
  induction l as [|y l IH]; intros lo hi x H Hx; cbn [set_add asc_in] in *.
  - split; [exact Hx|exact I].
  - destruct H as [H1 H2]. destruct (x <? y) eqn:E1.
    + cbn [asc_in]. split; [exact Hx|]. split; [lia|exact H2].
    + destruct (x =? y) eqn:E2; cbn [asc_in].
      * split; assumption.
      * split; [exact H1|]. apply IH; [exact H2|lia].
Qed.

Lemma set_remove_asc : forall l lo hi x, asc_in lo hi l -> asc_in lo hi (set_remove x l).
Proof.
  induction l as [|y l IH]; intros lo hi x H; cbn [set_remove asc_in] in *; [exact I|].
  destruct H as [H1 H2]. destruct (x =? y).
  - eapply asc_in_weaken; [exact H2|lia|lia].
  - cbn [asc_in]. split; [exact H1|]. apply IH. exact H2.
Qed.

Lemma set_remove_not_in : forall l lo hi x, asc_in lo hi l -> ~ In x (set_remove x l).
Proof.
  induction l as [|y l IH]; intros lo hi x H; cbn [set_remove asc_in] in *; [intros []|].
  destruct H as [H1 H2]. destruct (x =? y) eqn:E.
  - apply Z.eqb_eq in E. subst. intros Hin. pose proof (asc_in_In _ _ _ _ H2 Hin). lia.
  - cbn [In]. intros [Hc|Hc]; [apply Z.eqb_neq in E; congruence|].
    exact (IH _ _ _ H2 Hc).
Qed.

Lemma set_remove_absent : forall l x, ~ In x l -> set_remove x l = l.
Proof.
  induction l as [|y l IH]; intros x H; cbn [set_remove]; [reflexivity|].
  destruct (x =? y) eqn:E.
  - apply Z.eqb_eq in E. subst. exfalso. apply H. left. reflexivity.
  - f_equal. apply IH. intros Hc. apply H. right. exact Hc.
Qed.

Lemma set_remove_subset : forall l x y, In y (set_remove x l) -> In y l.
Proof.
  induction l as [|z l IH]; intros x y H; cbn [set_remove] in H; [contradiction|].
  destruct (x =? z); [right; exact H|].
  destruct H as [H|H]; [left; exact H|right; eapply IH; exact H].
Qed.

Lemma seqs_asc : forall n from, asc_in from (from + Z.of_nat n) (seqs from n).
Proof.
  induction n as [|n IH]; intros from; cbn [seqs asc_in]; [exact I|].
  split; [lia|]. replace (from + Z.of_nat (S n)) with (from + 1 + Z.of_nat n) by lia. apply IH.
Qed.

Lemma fold_add_asc : forall n from a hi,
  asc_in 0 hi a -> 0 <= from -> from + Z.of_nat n <= hi ->
  asc_in 0 hi (fold_left (fun a x => set_add x a) (seqs from n) a).
Proof.
  induction n as [|n IH]; intros from a hi Ha H0 Hh; cbn [seqs fold_left]; [exact Ha|].
  apply IH; [apply set_add_asc; [exact Ha|lia]|lia|lia].
Qed.

Definition ts_ok (hi : Z) (q : list (Z * Z)) : Prop := Forall (fun p => 0 <= fst p < hi) q.

Record Inv (s : t) : Prop := {
  inv_issued : 0 <= issued s;
  inv_active : asc_in 0 (issued s) (active s);
  inv_ts : ts_ok (issued s) (ts s);
  inv_retire : 0 <= prev s <= issued s /\ 0 <= rseq s <= issued s
}.

Lemma ts_ok_weaken hi hi' q : ts_ok hi q -> hi <= hi' -> ts_ok hi' q.
Proof.
  unfold ts_ok. intros H Hle. eapply Forall_impl; [|exact H]. cbn. intros p Hp. lia.
Qed.

Lemma last_in : forall (q : list (Z * Z)) d, q <> [] -> In (last q d) q.
Proof.
  induction q as [|x q IH]; intros d H; [congruence|]. cbn [last].
  destruct q as [|y q]; [left; reflexivity|]. right. apply IH. discriminate.
Qed.

Lemma set_last_ok : forall q v hi, ts_ok hi q -> 0 <= fst v < hi -> ts_ok hi (set_last q v).
Proof.
  induction q as [|x q IH]; intros v hi H Hv; cbn [set_last]; [constructor|].
  inversion H as [|? ? Hx Hq]; subst. destruct q as [|y q].
  - constructor; [exact Hv|constructor].
  - constructor; [exact Hx|]. apply IH; assumption.
Qed.

(** [track_lifetime] cannot hit its debug assertion. *)
Lemma track_ok lt q seq now :
  ts_ok seq q -> 0 <= seq ->
  exists q', track lt q seq now = Some q' /\ ts_ok (seq + 1) q'.
Proof.
  intros Hq Hs. assert (Hq' : ts_ok (seq + 1) q) by (eapply ts_ok_weaken; [exact Hq|lia]).
  unfold track. destruct lt as [d|]; [|eexists; split; [reflexivity|exact Hq']].
  destruct (last q (-1, -1)) as [lseq lts] eqn:El.
  destruct (negb (length q =? 0)%nat && (lts =? now + d)) eqn:Ec.
  - assert (Hne : q <> []).
    { destruct q; [cbn in Ec; discriminate|discriminate]. }
    pose proof (last_in q (-1, -1) Hne) as Hin. rewrite El in Hin.
    pose proof (proj1 (Forall_forall _ q) Hq _ Hin) as Hq0. cbn [fst] in Hq0.
    destruct (lseq <? seq) eqn:E; [|lia].
    eexists. split; [reflexivity|].
    apply set_last_ok; [exact Hq'|cbn [fst]; lia].
  - eexists. split; [reflexivity|]. apply Forall_app. split; [exact Hq'|].
    constructor; [cbn [fst]; lia|constructor].
Qed.

Lemma track_all_ok lt now : forall n from q,
  ts_ok from q -> 0 <= from ->
  exists q', track_all lt q (seqs from n) now = Some q' /\ ts_ok (from + Z.of_nat n) q'.
Proof.
  induction n as [|n IH]; intros from q Hq H0; cbn [seqs track_all].
  - eexists. split; [reflexivity|]. eapply ts_ok_weaken; [exact Hq|lia].
  - destruct (track_ok lt q from now Hq H0) as (q1 & H1 & Hq1). rewrite H1.
    destruct (IH (from + 1) q1 Hq1) as (q2 & H2 & Hq2); [lia|].
    exists q2. split; [exact H2|]. eapply ts_ok_weaken; [exact Hq2|lia].
Qed.

Lemma new_inv cl lt now iss :
  0 <= iss -> exists s, new cl lt now iss = Some s /\ Inv s.
Proof.
  intros H0. unfold new.
  destruct (track_all_ok lt now (Z.to_nat iss) 0 []) as (q & Hq & Hok); [constructor|lia|].
  rewrite Hq. eexists. split; [reflexivity|].
  constructor; cbn [issued active ts prev rseq].
  - exact H0.
  - pose proof (seqs_asc (Z.to_nat iss) 0) as H. rewrite Z2Nat.id in H by lia. exact H.
  - rewrite Z2Nat.id in Hok by lia. exact Hok.
  - lia.
Qed.

Lemma new_cids_inv s n now :
  Inv s -> exists s', new_cids s n now = Some s' /\ Inv s'.
Proof.
  intros [H0 Ha Ht Hr]. unfold new_cids. destruct (n <=? 0) eqn:En.
  - exists s. split; [reflexivity|constructor; assumption].
  - destruct (track_ok (lifetime s) (ts s) (issued s + n - 1) now) as (q & Hq & Hok).
    { eapply ts_ok_weaken; [exact Ht|lia]. } { lia. }
    rewrite Hq. eexists. split; [reflexivity|].
    constructor; cbn [issued active ts prev rseq].
    + lia.
    + apply fold_add_asc; [|lia|rewrite Z2Nat.id; lia].
      eapply asc_in_weaken; [exact Ha|lia|lia].
    + eapply ts_ok_weaken; [exact Hok|lia].
    + lia.
Qed.

Lemma retire_inv s seq limit : Inv s -> Inv (fst (on_cid_retirement s seq limit)).
Proof.
  intros [H0 Ha Ht Hr]. unfold on_cid_retirement.
  destruct (cid_len s =? 0); [constructor; assumption|].
  destruct (issued s <? seq); [constructor; assumption|].
  cbn [fst]. constructor; cbn [issued active ts prev rseq]; try assumption.
  apply set_remove_asc. exact Ha.
Qed.

Lemma timeout_inv s : Inv s -> Inv (fst (on_cid_timeout s)).
Proof.
  intros [H0 Ha Ht Hr]. unfold on_cid_timeout. cbn [fst].
  constructor; cbn [issued active ts prev rseq]; try assumption.
  - destruct (ts s) as [|[q e] r]; [constructor|]. inversion Ht; subst. assumption.
  - destruct (any_in (prev s) (rseq s) (active s)); [lia|].
    destruct (ts s) as [|[q e] r]; [lia|].
    inversion Ht as [|? ? Hq _]; subst. cbn [fst] in Hq.
    lia.
Qed.

Definition wf_op (o : op) : Prop :=
  match o with New _ _ _ iss => 0 <= iss | _ => True end.

Lemma step_inv s o : Inv s -> wf_op o -> exists s' out, step s o = Some (s', out) /\ Inv s'.
Proof.
  intros HI Hwf. destruct o as [cl lt now iss|n now|seq limit| |]; cbn [step].
  - destruct (new_inv cl lt now iss Hwf) as (s' & Hs & HI'). rewrite Hs.
    eexists _, _. split; [reflexivity|exact HI'].
  - destruct (new_cids_inv s n now HI) as (s' & Hs & HI'). rewrite Hs.
    eexists _, _. split; [reflexivity|exact HI'].
  - pose proof (retire_inv s seq limit HI) as HI'.
    destruct (on_cid_retirement s seq limit) as [s' [b|c]]; eexists _, _;
      (split; [reflexivity|exact HI']).
  - pose proof (timeout_inv s HI) as HI'. destruct (on_cid_timeout s) as [s' b].
    eexists _, _. split; [reflexivity|exact HI'].
  - eexists _, _. split; [reflexivity|exact HI].
Qed.

Fixpoint exec (s : t) (os : list op) : option t :=
  match os with
  | [] => Some s
  | o :: r => match step s o with Some (s', _) => exec s' r | None => None end
  end.

Lemma init_inv : Inv init.
Proof.
  constructor; cbn [init issued active ts prev rseq asc_in].
  - lia.
  - split; [lia|exact I].
  - constructor.
  - lia.
Qed.

Lemma exec_inv : forall os s, Inv s -> Forall wf_op os ->
  exists s', exec s os = Some s' /\ Inv s' /\
             exists outs, run_ops s os = Some outs /\ length outs = length os.
Proof.
  induction os as [|o os IH]; intros s HI Hwf.
  - exists s. split; [reflexivity|]. split; [exact HI|]. exists []. split; reflexivity.
  - inversion Hwf as [|? ? Ho Hos]; subst.
    destruct (step_inv s o HI Ho) as (s1 & out & Hs & HI1).
    destruct (IH s1 HI1 Hos) as (s' & He & HI' & outs & Hr & Hl).
    exists s'. cbn [exec run_ops]. rewrite Hs, Hr. split; [exact He|]. split; [exact HI'|].
    eexists. split; [reflexivity|]. cbn [length]. lia.
Qed.

Lemma inv_active_subset s : Inv s ->
  (forall x, In x (active s) -> 0 <= x < issued s) /\ Z.of_nat (length (active s)) <= issued s.
Proof.
  intros [H0 Ha _ _]. split.
  - intros x Hx. eapply asc_in_In; eassumption.
  - pose proof (asc_in_length _ _ _ Ha H0). lia.
Qed.

(** RETIRE_CONNECTION_ID for a sequence number above [issued] is rejected with
    PROTOCOL_VIOLATION and changes nothing. *)
Lemma retire_unissued_rejected s seq limit :
  issued s < seq -> on_cid_retirement s seq limit = (s, inr PROTOCOL_VIOLATION).
Proof.
  intros H. unfold on_cid_retirement. destruct (cid_len s =? 0); [reflexivity|].
  destruct (issued s <? seq) eqn:E; [reflexivity|lia].
Qed.

(** The guard is [sequence > issued], so [sequence == issued] — a CID that was never
    issued — is let through.  Under the invariant this is a no-op on the whole state: the
    sequence number is not in [active_seq], nothing is removed, no counter moves. *)
Lemma retire_at_issued_is_noop s limit :
  Inv s -> cid_len s <> 0 ->
  exists b, on_cid_retirement s (issued s) limit = (s, inl b)
            /\ b = (Z.of_nat (length (active s)) <? limit).
Proof.
  intros HI Hc. unfold on_cid_retirement.
  destruct (cid_len s =? 0) eqn:E0; [apply Z.eqb_eq in E0; contradiction|].
  destruct (issued s <? issued s) eqn:E1; [lia|].
  assert (Hni : ~ In (issued s) (active s)).
  { intros Hin. destruct (inv_active_subset s HI) as [Hs _]. specialize (Hs _ Hin). lia. }
  rewrite (set_remove_absent _ _ Hni). eexists. split; [|reflexivity].
  destruct s; reflexivity.
Qed.

(** An accepted retirement removes exactly that sequence number. *)
Lemma retire_accepted s seq limit s' b :
  Inv s -> on_cid_retirement s seq limit = (s', inl b) ->
  seq <= issued s /\ ~ In seq (active s') /\ (forall x, In x (active s') -> In x (active s)) /\
  issued s' = issued s /\ (b = true <-> Z.of_nat (length (active s')) < limit).
Proof.
  intros HI. unfold on_cid_retirement.
  destruct (cid_len s =? 0); [discriminate|].
  destruct (issued s <? seq) eqn:E; [discriminate|].
  intros H. inversion H; subst; clear H. cbn [active issued].
  split; [lia|]. split; [eapply set_remove_not_in; exact (inv_active _ HI)|].
  split; [intros x; apply set_remove_subset|]. split; [reflexivity|].
  rewrite Z.ltb_lt. reflexivity.
Qed.

Lemma cidstate_safe_lemma : forall os,
  Forall wf_op os ->
  exists s outs, exec init os = Some s /\ run_ops init os = Some outs /\
    length outs = length os /\
    (forall x, In x (active s) -> 0 <= x < issued s) /\
    Z.of_nat (length (active s)) <= issued s /\
    0 <= prev s <= issued s /\ 0 <= rseq s <= issued s.
Proof.
  intros os Hwf. destruct (exec_inv os init init_inv Hwf) as (s & He & HI & outs & Hr & Hl).
  exists s, outs. destruct (inv_active_subset s HI) as [H1 H2].
  pose proof (inv_retire _ HI) as H3.
  split; [exact He|]. split; [exact Hr|]. split; [exact Hl|]. split; [exact H1|].
  split; [exact H2|exact H3].
Qed.
