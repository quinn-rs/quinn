(** The [TokenMemoryCache] model (quinn-proto/src/token_memory_cache.rs).  [cache_hands_out_once]:
    for all capacities and histories, [pop_front().unwrap()] never meets an empty queue and a token
    is handed out at most as often as it was inserted.  Further: FIFO inside a server queue,
    drop-oldest on overflow, eviction of exactly the least recently used entry, freshening. *)
From QV Require Import Lib.Tac Lib.Corr Model.TokenCache.
Open Scope Z_scope.

Inductive cop := Ins (name tok : Z) | Take (name : Z).

(** [None]: the implementation would panic ([pop_front().unwrap()] on an empty queue); otherwise
    the (server, token) pairs handed out by [take], oldest first. *)
Fixpoint exec (s : TokenCache.t) (h : list cop) : option (TokenCache.t * list (Z * Z)) :=
  match h with
  | [] => Some (s, [])
  | Ins n k :: h' => exec (store s n k) h'
  | Take n :: h' =>
      match take s n with
      | None => None
      | Some (s', r) =>
          match exec s' h' with
          | None => None
          | Some (s'', out) => Some (s'', match r with Some k => (n, k) :: out | None => out end)
          end
      end
  end.

Fixpoint inserted (h : list cop) : list (Z * Z) :=
  match h with [] => [] | Ins n k :: h' => (n, k) :: inserted h' | Take _ :: h' => inserted h' end.

Definition pair_eqb (x y : Z * Z) : bool := (fst x =? fst y) && (snd x =? snd y).

Definition count (x : Z * Z) (l : list (Z * Z)) : nat := length (filter (pair_eqb x) l).

Definition Inv (s : TokenCache.t) : Prop :=
  zlen (lru s) <= max_names s /\
  NoDup (map fst (lru s)) /\
  Forall (fun e => snd e <> [] /\ zlen (snd e) <= max_tokens s) (lru s).

(** ghost: the multiset of (server, token) pairs currently stored *)
Definition flat (l : list entry) : list (Z * Z) :=
  concat (map (fun e => map (pair (fst e)) (snd e)) l).

Lemma pair_eqb_eq x y : pair_eqb x y = true <-> x = y.
Proof.
  destruct x as [a b], y as [c d]. unfold pair_eqb. cbn [fst snd].
  rewrite andb_true_iff, !Z.eqb_eq. split.
  - intros [-> ->]. reflexivity.
  - intros H. inversion H. auto.
Qed.

Lemma count_app x l1 l2 : count x (l1 ++ l2) = (count x l1 + count x l2)%nat.
Proof. unfold count. rewrite filter_app, app_length. reflexivity. Qed.

Lemma count_cons x y l : count x (y :: l) = (count x [y] + count x l)%nat.
Proof. apply (count_app x [y] l). Qed.

Lemma count_nil x : count x [] = 0%nat.
Proof. reflexivity. Qed.

Lemma count_in x l : (0 < count x l)%nat <-> In x l.
Proof.
  unfold count. split.
  - intros H. destruct (filter (pair_eqb x) l) as [|y f] eqn:E; [cbn [length] in H; lia|].
    assert (Hy : In y (filter (pair_eqb x) l)) by (rewrite E; left; reflexivity).
    apply filter_In in Hy. destruct Hy as [Hy1 Hy2]. apply pair_eqb_eq in Hy2. subst y. exact Hy1.
  - intros H. assert (Hx : In x (filter (pair_eqb x) l)).
    { apply filter_In. split; [exact H | apply pair_eqb_eq; reflexivity]. }
    destruct (filter (pair_eqb x) l); [destruct Hx | cbn [length]; lia].
Qed.

Lemma flat_app l1 l2 : flat (l1 ++ l2) = flat l1 ++ flat l2.
Proof. unfold flat. rewrite map_app, concat_app. reflexivity. Qed.

Lemma flat_cons n q l : flat ((n, q) :: l) = map (pair n) q ++ flat l.
Proof. reflexivity. Qed.

Lemma extract_some n l q r :
  extract n l = Some (q, r) ->
  exists l1 l2, l = l1 ++ (n, q) :: l2 /\ r = l1 ++ l2 /\ ~ In n (map fst l1).
Proof.
  revert q r. induction l as [|[m p] l IH]; intros q r H; cbn [extract] in H.
  - discriminate.
  - destruct (m =? n) eqn:E.
    + apply Z.eqb_eq in E. subst m. inversion H; subst. exists [], r.
      repeat split; auto.
    + destruct (extract n l) as [[q' r']|] eqn:E2; [|discriminate].
      inversion H; subst. destruct (IH _ _ eq_refl) as (l1 & l2 & -> & -> & Hn).
      exists ((m, p) :: l1), l2. repeat split; auto.
      cbn [map fst In]. intros [A|A]; [lia | auto].
Qed.

Lemma extract_none n l : extract n l = None -> ~ In n (map fst l).
Proof.
  induction l as [|[m p] l IH]; intros H; cbn [extract] in H.
  - intros [].
  - destruct (m =? n) eqn:E; [discriminate|].
    destruct (extract n l) as [[q' r']|] eqn:E2; [discriminate|].
    cbn [map fst In]. intros [A|A]; [lia | exact (IH eq_refl A)].
Qed.

Lemma extract_app n l1 q l2 :
  ~ In n (map fst l1) -> extract n (l1 ++ (n, q) :: l2) = Some (q, l1 ++ l2).
Proof.
  induction l1 as [|[m p] l1 IH]; intros H.
  - cbn [app extract]. rewrite Z.eqb_refl. reflexivity.
  - cbn [map fst In] in H. cbn [app extract].
    destruct (m =? n) eqn:E; [exfalso; apply H; left; lia|].
    rewrite IH by tauto. reflexivity.
Qed.

Lemma extract_of_in n q l :
  NoDup (map fst l) -> In (n, q) l -> exists r, extract n l = Some (q, r).
Proof.
  intros Hnd Hin. apply in_split in Hin. destruct Hin as (l1 & l2 & ->).
  exists (l1 ++ l2). apply extract_app.
  rewrite map_app in Hnd. cbn [map fst] in Hnd. apply NoDup_remove_2 in Hnd.
  intros A. apply Hnd. apply in_or_app. left. exact A.
Qed.

Lemma extract_names n l q rest :
  NoDup (map fst l) -> extract n l = Some (q, rest) ->
  map fst rest = remove Z.eq_dec n (map fst l).
Proof.
  intros Hnd Hex. apply extract_some in Hex. destruct Hex as (l1 & l2 & -> & -> & _).
  rewrite map_app in Hnd. cbn [map fst] in Hnd.
  pose proof (NoDup_remove_2 _ _ _ Hnd) as Hn.
  rewrite !map_app. cbn [map fst]. rewrite remove_app. cbn [remove].
  destruct (Z.eq_dec n n) as [_|Hne]; [|congruence].
  rewrite !notin_remove; [reflexivity| |]; intros A; apply Hn; apply in_or_app; auto.
Qed.

(** [entry] and its unfolding are different atoms for [lia]: normalise first *)
Ltac zlia := unfold entry in *; lia.

Lemma zlen_app {A} (l1 l2 : list A) : zlen (l1 ++ l2) = zlen l1 + zlen l2.
Proof. unfold zlen. rewrite app_length. zlia. Qed.

Lemma zlen_cons {A} (a : A) l : zlen (a :: l) = 1 + zlen l.
Proof. unfold zlen. cbn [length]. zlia. Qed.

Lemma zlen_nonneg {A} (l : list A) : 0 <= zlen l.
Proof. unfold zlen. zlia. Qed.

Lemma store_zero s n k : max_names s = 0 \/ max_tokens s = 0 -> store s n k = s.
Proof.
  intros H. unfold store. destruct (max_names s =? 0) eqn:E1; [reflexivity|].
  destruct (max_tokens s =? 0) eqn:E2; [reflexivity|zlia].
Qed.

Lemma store_eq s n k :
  max_names s <> 0 -> max_tokens s <> 0 ->
  store s n k =
  mk (max_names s) (max_tokens s)
     match extract n (lru s) with
     | Some (q, rest) => (n, (if max_tokens s <=? zlen q then tl q else q) ++ [k]) :: rest
     | None => (n, [k]) :: (if max_names s <=? zlen (lru s) then removelast (lru s) else lru s)
     end.
Proof.
  intros H1 H2. unfold store. destruct (max_names s =? 0) eqn:E1; [zlia|].
  destruct (max_tokens s =? 0) eqn:E2; [zlia|]. destruct (extract n (lru s)) as [[q rest]|]; reflexivity.
Qed.

(** [take] hands out the OLDEST stored token of that server and leaves the rest of the queue
    (the entry disappears when the queue becomes empty) *)
Theorem take_is_fifo_state s n k q rest :
  extract n (lru s) = Some (k :: q, rest) ->
  take s n = Some (mk (max_names s) (max_tokens s)
                      (match q with [] => rest | _ => (n, q) :: rest end), Some k).
Proof.
  intros Hex. unfold take. rewrite Hex. destruct q; reflexivity.
Qed.

(** a [take] for an absent name changes nothing (in particular it does not reorder) *)
Theorem take_absent s n : extract n (lru s) = None -> take s n = Some (s, None).
Proof. intros Hex. unfold take. rewrite Hex. reflexivity. Qed.

Lemma inv_split mn mt l1 n q l2 :
  Inv (mk mn mt (l1 ++ (n, q) :: l2)) ->
  Inv (mk mn mt (l1 ++ l2)) /\ zlen (l1 ++ l2) + 1 <= mn /\ ~ In n (map fst (l1 ++ l2)) /\
  q <> [] /\ zlen q <= mt.
Proof.
  unfold Inv. cbn [lru max_names max_tokens]. intros (Hlen & Hnd & Hall).
  rewrite zlen_app, zlen_cons in Hlen. rewrite !zlen_app.
  rewrite map_app in Hnd. cbn [map fst] in Hnd.
  apply Forall_app in Hall. destruct Hall as [Hall1 Hall2].
  inversion Hall2 as [|e l' He Hall3]; subst. cbn [snd] in He. rewrite map_app.
  split; [split; [zlia|split]|split; [zlia|split; [exact (NoDup_remove_2 _ _ _ Hnd)|exact He]]].
  - exact (NoDup_remove_1 _ _ _ Hnd).
  - apply Forall_app. split; assumption.
Qed.

Lemma inv_cons mn mt n q l :
  Inv (mk mn mt l) -> zlen l + 1 <= mn -> ~ In n (map fst l) -> q <> [] -> zlen q <= mt ->
  Inv (mk mn mt ((n, q) :: l)).
Proof.
  unfold Inv. cbn [lru max_names max_tokens]. intros (_ & Hnd & Hall) Hlen Hn Hq Hql.
  rewrite zlen_cons. split; [zlia|]. split; constructor; try assumption. split; assumption.
Qed.

(** what is kept when a new name comes in: everything, or all but the last entry of a full cache *)
Lemma inv_evict mn mt l base :
  Inv (mk mn mt l) -> mn <> 0 -> base = (if mn <=? zlen l then removelast l else l) ->
  exists t, l = base ++ t /\ Inv (mk mn mt base) /\ zlen base + 1 <= mn.
Proof.
  intros HI Hmn ->. destruct (mn <=? zlen l) eqn:E.
  - destruct (exists_last (l := l)) as (b & [n q] & ->).
    { intros ->. destruct HI as (Hlen & _). cbn in Hlen, E. lia. }
    rewrite removelast_last. exists [(n, q)].
    destruct (inv_split _ _ _ _ _ _ HI) as (HI' & Hlen & _). rewrite app_nil_r in HI', Hlen. auto.
  - exists []. rewrite app_nil_r. split; [reflexivity|]. split; [exact HI|zlia].
Qed.

(** The capacities never change: the specifications speak of the entry list. *)
Lemma store_spec mn mt l n k :
  Inv (mk mn mt l) -> 0 <= mt ->
  exists l', store (mk mn mt l) n k = mk mn mt l' /\ Inv (mk mn mt l') /\
    forall x, (count x (flat l') <= count x (flat l) + count x [(n, k)])%nat.
Proof.
  intros HI Hmt.
  destruct (Z.eq_dec mn 0) as [E1|E1];
    [exists l; rewrite store_zero by (left; exact E1); repeat split; [apply HI..|intros; zlia]|].
  destruct (Z.eq_dec mt 0) as [E2|E2];
    [exists l; rewrite store_zero by (right; exact E2); repeat split; [apply HI..|intros; zlia]|].
  rewrite store_eq by assumption. cbn [lru max_names max_tokens]. eexists. split; [reflexivity|].
  destruct (extract n l) as [[q rest]|] eqn:Ex.
  - apply extract_some in Ex. destruct Ex as (l1 & l2 & -> & -> & _).
    destruct (inv_split _ _ _ _ _ _ HI) as (HI' & Hlen & Hnin & Hq & Hql). split.
    + apply inv_cons; try assumption.
      * destruct (if mt <=? zlen q then tl q else q); discriminate.
      * rewrite zlen_app. change (zlen [k]) with 1.
        destruct (mt <=? zlen q) eqn:E3; [|zlia].
        destruct q as [|a q]; [congruence|]. cbn [tl]. rewrite zlen_cons in Hql. zlia.
    + intros x. rewrite flat_cons, !flat_app, flat_cons, map_app, !count_app. cbn [map].
      destruct (mt <=? zlen q); [|zlia]. destruct q as [|a q]; cbn [tl map]; [zlia|].
      rewrite (count_cons x (n, a)). zlia.
  - apply extract_none in Ex.
    destruct (inv_evict mn mt l _ HI E1 eq_refl) as (t & Hl & HI' & Hlen'). unfold entry in *.
    set (base := if mn <=? zlen l then removelast l else l) in *. clearbody base. subst l. split.
    + apply inv_cons; try assumption; try discriminate.
      * intros A. apply Ex. rewrite map_app. apply in_or_app. left. exact A.
      * change (zlen [k]) with 1. zlia.
    + intros x. rewrite flat_cons, flat_app, !count_app. cbn [map app]. zlia.
Qed.

Lemma store_inv s n k : Inv s -> 0 <= max_tokens s -> Inv (store s n k).
Proof.
  destruct s as [mn mt l]. intros H1 H2.
  destruct (store_spec mn mt l n k H1 H2) as (l' & -> & HI & _). exact HI.
Qed.

Lemma take_spec mn mt l n :
  Inv (mk mn mt l) ->
  exists l' r, take (mk mn mt l) n = Some (mk mn mt l', r) /\ Inv (mk mn mt l') /\
    forall x, (count x (match r with Some k => [(n, k)] | None => [] end)
               + count x (flat l') = count x (flat l))%nat.
Proof.
  intros HI. destruct (extract n l) as [[q rest]|] eqn:Ex.
  - pose proof Ex as Hsplit.
    apply extract_some in Hsplit. destruct Hsplit as (l1 & l2 & -> & -> & _).
    destruct (inv_split _ _ _ _ _ _ HI) as (HI' & Hlen & Hnin & Hq & Hql).
    destruct q as [|tok q']; [congruence|].
    rewrite (take_is_fifo_state (mk mn mt _) _ _ _ _ Ex). cbn [max_names max_tokens].
    eexists _, _. split; [reflexivity|]. split.
    + destruct q' as [|t2 q'']; [exact HI'|].
      rewrite zlen_cons in Hql. apply inv_cons; try assumption; [discriminate|zlia].
    + intros x.
      destruct q' as [|t2 q'']; rewrite ?flat_cons, !flat_app, flat_cons, !count_app; cbn [map];
        [|rewrite (count_cons x (n, tok) (_ :: _))]; zlia.
  - rewrite (take_absent (mk mn mt l) _ Ex). eexists _, _. split; [reflexivity|]. split; [exact HI|].
    intros x. rewrite count_nil. zlia.
Qed.

Lemma take_never_panics s n : Inv s -> take s n <> None.
Proof.
  destruct s as [mn mt l]. intros HI. destruct (take_spec mn mt l n HI) as (l' & r & -> & _).
  discriminate.
Qed.

Lemma take_inv s n s' r : Inv s -> take s n = Some (s', r) -> Inv s'.
Proof.
  destruct s as [mn mt l]. intros HI H. destruct (take_spec mn mt l n HI) as (l1 & r1 & H1 & HI1 & _).
  rewrite H1 in H. inversion H; subst. exact HI1.
Qed.

Lemma exec_gen mn mt h : 0 <= mt -> forall l,
  Inv (mk mn mt l) ->
  exists l' out, exec (mk mn mt l) h = Some (mk mn mt l', out) /\ Inv (mk mn mt l') /\
    forall x, (count x out + count x (flat l') <= count x (flat l) + count x (inserted h))%nat.
Proof.
  intros Hmt. induction h as [|[n k|n] h IH]; intros l HI; cbn [exec inserted].
  - exists l, []. split; [reflexivity|]. split; [exact HI|]. intros x. rewrite !count_nil. zlia.
  - destruct (store_spec mn mt l n k HI Hmt) as (l1 & -> & HI1 & Hc1).
    destruct (IH l1 HI1) as (l' & out & He & HI' & Hc').
    exists l', out. split; [exact He|]. split; [exact HI'|].
    intros x. rewrite (count_cons x (n, k)). specialize (Hc1 x). specialize (Hc' x). zlia.
  - destruct (take_spec mn mt l n HI) as (l1 & r & -> & HI1 & Hc1).
    destruct (IH l1 HI1) as (l' & out & -> & HI' & Hc').
    eexists _, _. split; [reflexivity|]. split; [exact HI'|].
    intros x. specialize (Hc1 x). specialize (Hc' x).
    destruct r as [k|]; [rewrite (count_cons x (n, k))|]; rewrite ?count_nil in Hc1; zlia.
Qed.

Lemma init_inv mn mt : 0 <= mn -> Inv (init mn mt).
Proof.
  intros H. unfold Inv, init. cbn [lru max_names max_tokens map]. split; [exact H|].
  split; constructor.
Qed.

Theorem cache_hands_out_once : forall mn mt h,
  0 <= mn -> 0 <= mt ->
  exists s out,
    exec (init mn mt) h = Some (s, out) /\
    Inv s /\ max_names s = mn /\ max_tokens s = mt /\
    (forall x, (count x out <= count x (inserted h))%nat).
Proof.
  intros mn mt h Hmn Hmt.
  destruct (exec_gen mn mt h Hmt [] (init_inv mn mt Hmn)) as (l & out & He & HI & Hc).
  exists (mk mn mt l), out. split; [exact He|]. split; [exact HI|]. split; [reflexivity|].
  split; [reflexivity|]. intros x. specialize (Hc x). rewrite count_nil in Hc. zlia.
Qed.

Corollary cache_out_was_inserted mn mt h s out :
  0 <= mn -> 0 <= mt -> exec (init mn mt) h = Some (s, out) ->
  forall x, In x out -> In x (inserted h).
Proof.
  intros Hmn Hmt He x Hx.
  destruct (cache_hands_out_once mn mt h Hmn Hmt) as (s1 & out1 & He1 & _ & _ & _ & Hc).
  rewrite He in He1. inversion He1; subst. apply count_in. apply count_in in Hx.
  specialize (Hc x). zlia.
Qed.

Lemma exec_zero h : forall s,
  lru s = [] -> (max_names s = 0 \/ max_tokens s = 0) -> exec s h = Some (s, []).
Proof.
  induction h as [|[n k|n] h IH]; intros s Hl Hz; cbn [exec].
  - reflexivity.
  - rewrite (store_zero s n k Hz). apply IH; assumption.
  - rewrite take_absent by (rewrite Hl; reflexivity). rewrite (IH s Hl Hz). reflexivity.
Qed.

Theorem cache_zero_capacity : forall mn mt h,
  (mn = 0 \/ mt = 0) -> exists s, exec (init mn mt) h = Some (s, []).
Proof.
  intros mn mt h Hz. exists (init mn mt). apply exec_zero; [reflexivity|exact Hz].
Qed.

(** a full queue drops its oldest token when a new one is stored *)
Theorem store_drops_oldest s n k q rest :
  extract n (lru s) = Some (q, rest) ->
  max_tokens s <= zlen q -> 0 < max_tokens s -> 0 < max_names s ->
  lru (store s n k) = (n, tl q ++ [k]) :: rest.
Proof.
  intros Hex Hfull Hmt Hmn. rewrite store_eq, Hex by zlia. cbn [lru].
  destruct (max_tokens s <=? zlen q) eqn:E3; [reflexivity|zlia].
Qed.

(** a queue that is not full just gets the token appended *)
Theorem store_appends s n k q rest :
  extract n (lru s) = Some (q, rest) ->
  zlen q < max_tokens s -> 0 < max_names s ->
  lru (store s n k) = (n, q ++ [k]) :: rest.
Proof.
  intros Hex Hfull Hmn. pose proof (zlen_nonneg q). rewrite store_eq, Hex by zlia. cbn [lru].
  destruct (max_tokens s <=? zlen q) eqn:E3; [zlia|reflexivity].
Qed.

(** Summary: the list order is recency of use, and eviction removes the least recently used. *)
Theorem cache_eviction_is_lru s n k :
  Inv s -> 0 < max_names s -> 0 < max_tokens s ->
  (* (a) absent name, full cache: exactly the last entry is evicted, the new one is the head *)
  (extract n (lru s) = None -> max_names s <= zlen (lru s) ->
   lru (store s n k) = (n, [k]) :: removelast (lru s)) /\
  (* absent name, room left: nothing is evicted *)
  (extract n (lru s) = None -> zlen (lru s) < max_names s ->
   lru (store s n k) = (n, [k]) :: lru s) /\
  (* (b) present name: [store] freshens, the others keep their order *)
  (In n (map fst (lru s)) ->
   map fst (lru (store s n k)) = n :: remove Z.eq_dec n (map fst (lru s))) /\
  (* (b) a [take] that leaves tokens freshens, the others keep their order *)
  (forall t t2 q rest, extract n (lru s) = Some (t :: t2 :: q, rest) ->
   exists s', take s n = Some (s', Some t) /\
     map fst (lru s') = n :: remove Z.eq_dec n (map fst (lru s))) /\
  (* a [take] that empties the queue removes the entry, the others keep their order *)
  (forall t rest, extract n (lru s) = Some ([t], rest) ->
   exists s', take s n = Some (s', Some t) /\
     map fst (lru s') = remove Z.eq_dec n (map fst (lru s))).
Proof.
  intros (_ & Hnd & _) Hmn Hmt. pose proof (store_eq s n k ltac:(zlia) ltac:(zlia)) as Hst.
  split; [|split; [|split; [|split]]].
  - intros Hex Hfull. rewrite Hst, Hex. cbn [lru].
    destruct (max_names s <=? zlen (lru s)) eqn:E; [reflexivity|zlia].
  - intros Hex Hroom. rewrite Hst, Hex. cbn [lru].
    destruct (max_names s <=? zlen (lru s)) eqn:E; [zlia|reflexivity].
  - intros Hin. destruct (extract n (lru s)) as [[q rest]|] eqn:Hex;
      [|destruct (extract_none _ _ Hex Hin)].
    rewrite Hst. cbn [lru map fst]. f_equal. exact (extract_names _ _ _ _ Hnd Hex).
  - intros t t2 q rest Hex. eexists. split; [exact (take_is_fifo_state _ _ _ _ _ Hex)|].
    cbn [lru map fst]. f_equal. exact (extract_names _ _ _ _ Hnd Hex).
  - intros t rest Hex. eexists. split; [exact (take_is_fifo_state _ _ _ _ _ Hex)|].
    exact (extract_names _ _ _ _ Hnd Hex).
Qed.

(** ** Non-vacuity: capacities (2, 2), three server names.
    [Ins 1 12] overflows server 1's queue (token 10 is dropped, so the first [Take 1] yields 11);
    [Ins 1 13] freshens server 1, so [Ins 3 30] on the full cache evicts server 2 (the least
    recently USED, although it was created after server 1) and token 20 is lost: [Take 2] yields
    nothing; the first [Take 3] empties server 3's queue and removes the entry (second [Take 3]
    yields nothing); finally [Ins 2 21; Ins 3 31] evicts server 1 with token 13 still stored. *)
Definition cache_example_history : list cop :=
  [Ins 1 10; Ins 1 11; Ins 1 12; Take 1; Ins 2 20; Ins 1 13; Ins 3 30;
   Take 2; Take 3; Take 3; Take 1; Ins 2 21; Ins 3 31; Take 1].

Example cache_example :
  exec (init 2 2) cache_example_history
  = Some (mk 2 2 [(3, [31]); (2, [21])], [(1, 11); (3, 30); (1, 12)]).
Proof. vm_compute. reflexivity. Qed.

Example cache_example_before_eviction :
  exec (init 2 2) (firstn 6 cache_example_history)
  = Some (mk 2 2 [(1, [12; 13]); (2, [20])], [(1, 11)]).
Proof. vm_compute. reflexivity. Qed.

Example cache_example_after_eviction :
  exec (init 2 2) (firstn 7 cache_example_history)
  = Some (mk 2 2 [(3, [30]); (1, [12; 13])], [(1, 11)]).
Proof. vm_compute. reflexivity. Qed.

(** the hypotheses of the eviction / overflow / freshening theorems are satisfiable together *)
Example cache_example_hyps :
  let s := mk 2 2 [(1, [12; 13]); (2, [20])] in
  Inv s /\ extract 3 (lru s) = None /\ max_names s <= zlen (lru s) /\
  extract 1 (lru s) = Some ([12; 13], [(2, [20])]) /\ max_tokens s <= zlen [12; 13].
Proof.
  cbv zeta. split; [|split; [reflexivity|split; [vm_compute; discriminate|split; [reflexivity|vm_compute; discriminate]]]].
  unfold Inv. cbn [lru max_names max_tokens map fst]. split; [vm_compute; discriminate|]. split.
  - constructor; [intros [A|[]]; discriminate|]. constructor; [intros []|constructor].
  - repeat constructor; cbn [snd]; try discriminate; vm_compute; discriminate.
Qed.

Print Assumptions cache_hands_out_once.
