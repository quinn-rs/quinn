(** C05, first part: after the finite-map facts about [SMap] and the arithmetic of stream ids,
    defines the system model, the ghost machine over Model/FlowSend.v ([Ghost], [adm], [gupd],
    [gstep], [start], [grun]), and proves the credit invariant [Inv] of every state it reaches
    ([reachable_inv]). *)
From QV Require Import Lib.Tac Lib.Corr Model.FlowSend Proofs.FlowSendAcc Proofs.RunInduction.
Open Scope Z_scope.

(** Reduce comparisons of literals ([Z.eqb] is [simpl never]). *)
Ltac red_eqb :=
  repeat match goal with
  | |- context [Z.eqb (Zpos ?a) (Zpos ?b)] =>
      let v := eval vm_compute in (Z.eqb (Zpos a) (Zpos b)) in
      change (Z.eqb (Zpos a) (Zpos b)) with v
  | |- context [Z.eqb Z0 (Zpos ?b)] => change (Z.eqb Z0 (Zpos b)) with false
  | |- context [Z.eqb (Zpos ?b) Z0] => change (Z.eqb (Zpos b) Z0) with false
  | |- context [Z.eqb Z0 Z0] => change (Z.eqb Z0 Z0) with true
  end.

Definition offo (v : option Send) : Z := match v with Some x => x.(s_offset) | None => 0 end.
Fixpoint sum_off (m : SMap) : Z :=
  match m with [] => 0 | (_, v) :: t => offo v + sum_off t end.
Definition keys (m : SMap) : list Z := map fst m.

Lemma lookup_update k id v m :
  lookup k (update id v m) =
  if k =? id then match lookup id m with Some _ => Some v | None => None end else lookup k m.
Proof.
  induction m as [|[a w] t IH]; cbn [update lookup].
  - destruct (k =? id); reflexivity.
  - destruct (a =? id) eqn:Ea; cbn [lookup].
    + destruct (k =? id) eqn:Ek.
      * assert (a =? k = true) as -> by lia. reflexivity.
      * destruct (a =? k) eqn:Eak; [lia|reflexivity].
    + destruct (a =? k) eqn:Eak.
      * assert (k =? id = false) as -> by lia. reflexivity.
      * exact IH.
Qed.

Lemma sum_off_update id v m :
  sum_off (update id v m) =
  match lookup id m with Some old => sum_off m - offo old + offo v | None => sum_off m end.
Proof.
  induction m as [|[a w] t IH]; cbn [update lookup sum_off]; [reflexivity|].
  destruct (a =? id) eqn:Ea; cbn [sum_off].
  - lia.
  - rewrite IH. destruct (lookup id t); lia.
Qed.

Lemma keys_update id v m : keys (update id v m) = keys m.
Proof.
  induction m as [|[a w] t IH]; cbn [update keys map fst]; [reflexivity|].
  destruct (a =? id); cbn [map fst]; [reflexivity|]. f_equal. exact IH.
Qed.

Lemma lookup_none_keys id m : lookup id m = None <-> ~ In id (keys m).
Proof.
  induction m as [|[a w] t IH]; cbn [lookup keys map fst In].
  - tauto.
  - destruct (a =? id) eqn:Ea.
    + split; [discriminate|]. intros H. exfalso. apply H. left. lia.
    + rewrite IH. split; intros H; [intros [H1|H1]; [lia|tauto]|tauto].
Qed.

Lemma lookup_remove_neq k id m : k <> id -> lookup k (remove id m) = lookup k m.
Proof.
  intros Hk. induction m as [|[a w] t IH]; cbn [remove lookup]; [reflexivity|].
  destruct (a =? id) eqn:Ea; cbn [lookup].
  - destruct (a =? k) eqn:Eak; [lia|reflexivity].
  - destruct (a =? k); [reflexivity|exact IH].
Qed.

Lemma keys_remove_subset id m k : In k (keys (remove id m)) -> In k (keys m).
Proof.
  induction m as [|[a w] t IH]; cbn [remove keys map fst In]; [tauto|].
  destruct (a =? id); cbn [map fst In]; [tauto|]. intros [H|H]; [tauto|]. right. apply IH. exact H.
Qed.

Lemma NoDup_remove id m : NoDup (keys m) -> NoDup (keys (remove id m)).
Proof.
  induction m as [|[a w] t IH]; cbn [remove keys map fst]; intros H; [constructor|].
  inversion H as [|? ? Hn Hd]; subst.
  destruct (a =? id); cbn [map fst]; [exact Hd|].
  constructor; [|apply IH; exact Hd].
  intros Hin. apply Hn. eapply keys_remove_subset. exact Hin.
Qed.

Lemma lookup_remove_eq id m : NoDup (keys m) -> lookup id (remove id m) = None.
Proof.
  induction m as [|[a w] t IH]; cbn [remove lookup keys map fst]; intros H; [reflexivity|].
  inversion H as [|? ? Hn Hd]; subst.
  destruct (a =? id) eqn:Ea; cbn [lookup].
  - apply lookup_none_keys. apply Z.eqb_eq in Ea as ->. exact Hn.
  - rewrite Ea. apply IH. exact Hd.
Qed.

Lemma sum_off_remove id m :
  sum_off (remove id m) = match lookup id m with Some old => sum_off m - offo old | None => sum_off m end.
Proof.
  induction m as [|[a w] t IH]; cbn [remove lookup sum_off]; [reflexivity|].
  destruct (a =? id) eqn:Ea; cbn [sum_off]; [lia|].
  rewrite IH. destruct (lookup id t); lia.
Qed.

Lemma lookup_remove k id m :
  NoDup (keys m) -> lookup k (remove id m) = if k =? id then None else lookup k m.
Proof.
  intros N. destruct (Z.eqb_spec k id) as [->|Ne]; [apply lookup_remove_eq; exact N|apply lookup_remove_neq; exact Ne].
Qed.

Lemma remove_update id v m : remove id (update id v m) = remove id m.
Proof.
  induction m as [|[q w] t IH]; cbn [update remove]; [reflexivity|].
  destruct (q =? id) eqn:E; cbn [remove]; rewrite E; [reflexivity|]. f_equal. exact IH.
Qed.

Lemma lookup_insert k id v m :
  lookup id m = None ->
  lookup k (insert id v m) = if k =? id then Some v else lookup k m.
Proof.
  induction m as [|[a w] t IH]; cbn [insert lookup]; intros Hn.
  - destruct (id =? k) eqn:E1, (k =? id) eqn:E2; try lia; reflexivity.
  - destruct (a =? id) eqn:Ea; [discriminate|].
    destruct (id <? a) eqn:El; cbn [lookup].
    + destruct (id =? k) eqn:E1, (k =? id) eqn:E2; try lia; reflexivity.
    + destruct (a =? k) eqn:Eak.
      * assert (k =? id = false) as -> by lia. reflexivity.
      * apply IH. exact Hn.
Qed.

Lemma keys_insert k id v m : In k (keys (insert id v m)) <-> k = id \/ In k (keys m).
Proof.
  induction m as [|[a w] t IH]; cbn [insert keys map fst In].
  - intuition.
  - destruct (id <? a); cbn [map fst In].
    + intuition.
    + fold (keys (insert id v t)). fold (keys t). rewrite IH. intuition.
Qed.

Lemma NoDup_insert id v m : NoDup (keys m) -> lookup id m = None -> NoDup (keys (insert id v m)).
Proof.
  induction m as [|[a w] t IH]; cbn [insert keys map fst lookup]; intros H Hn.
  - constructor; [intros []|constructor].
  - destruct (a =? id) eqn:Ea; [discriminate|].
    inversion H as [|? ? Hna Hd]; subst.
    destruct (id <? a); cbn [map fst].
    + constructor; [|exact H]. cbn [In]. intros [H1|H1]; [lia|].
      apply lookup_none_keys in Hn. apply Hn. exact H1.
    + constructor.
      * fold (keys (insert id v t)). rewrite keys_insert. intros [H1|H1]; [lia|]. apply Hna. exact H1.
      * apply IH; assumption.
Qed.

Lemma sum_off_insert_none id m : sum_off (insert id None m) = sum_off m.
Proof.
  induction m as [|[a w] t IH]; cbn [insert sum_off offo]; [reflexivity|].
  destruct (id <? a); cbn [sum_off offo]; lia.
Qed.

Lemma In_lookup k v m : NoDup (keys m) -> In (k, v) m -> lookup k m = Some v.
Proof.
  induction m as [|[a w] t IH]; cbn [keys map fst lookup In]; intros N Hin; [tauto|].
  inversion N as [|? ? Hn Hd]; subst. destruct Hin as [E|Hin].
  - injection E as -> ->. rewrite Z.eqb_refl. reflexivity.
  - destruct (Z.eqb_spec a k) as [->|Ne].
    + exfalso. apply Hn. change (In (fst (k, v)) (map fst t)).
      apply in_map. exact Hin.
    + apply IH; assumption.
Qed.

Lemma lookup_In k v m : lookup k m = Some v -> In (k, v) m.
Proof.
  induction m as [|[a w] t IH]; cbn [lookup In]; [discriminate|].
  destruct (a =? k) eqn:Ea.
  - intros E. injection E as ->. left. f_equal. lia.
  - intros E. right. apply IH. exact E.
Qed.

Lemma lookup_in_keys k v m : lookup k m = Some v -> In k (keys m).
Proof.
  intros L. change (In (fst (k, v)) (map fst m)). apply in_map. apply lookup_In. exact L.
Qed.

Lemma in_keys_lookup k m : In k (keys m) -> lookup k m <> None.
Proof. intros Hin Hn. apply lookup_none_keys in Hn. contradiction. Qed.

Lemma sum_off_none m : (forall k v, In (k, v) m -> v = None) -> sum_off m = 0.
Proof.
  induction m as [|[k v] t IH]; intros H; cbn [sum_off]; [reflexivity|].
  rewrite (H k v) by (left; reflexivity). cbn [offo]. rewrite IH; [reflexivity|].
  intros k' v' Hin. apply (H k'). right. exact Hin.
Qed.

Lemma Forall_insert (P : Z * option Send -> Prop) id v m :
  P (id, v) -> Forall P m -> Forall P (insert id v m).
Proof.
  intros Hp. induction m as [|[a w] t IH]; intros H; cbn [insert].
  - constructor; [exact Hp|constructor].
  - inversion H; subst. destruct (id <? a); constructor; auto.
Qed.

Lemma filter_none (f : Z -> bool) l : (forall k, In k l -> f k = false) -> filter f l = [].
Proof.
  induction l as [|k t IH]; intros H; [reflexivity|]. cbn [filter].
  rewrite (H k (or_introl eq_refl)). apply IH. intros k' Hk'. apply H. right. exact Hk'.
Qed.

Lemma id_init_sid i d k : 0 <= i <= 1 -> 0 <= d <= 1 -> 0 <= k -> id_init (sid i d k) = i.
Proof. unfold id_init, sid. intros. lia. Qed.
Lemma id_dir_sid i d k : 0 <= i <= 1 -> 0 <= d <= 1 -> 0 <= k -> id_dir (sid i d k) = d.
Proof. unfold id_dir, sid. intros. lia. Qed.
Lemma id_index_sid i d k : 0 <= i <= 1 -> 0 <= d <= 1 -> 0 <= k -> id_index (sid i d k) = k.
Proof. unfold id_index, sid. intros. lia. Qed.
Lemma sid_decompose id : 0 <= id -> id = sid (id_init id) (id_dir id) (id_index id).
Proof. unfold sid, id_init, id_dir, id_index. intros. lia. Qed.
Lemma sid_nonneg i d k : 0 <= i -> 0 <= d -> 0 <= k -> 0 <= sid i d k.
Proof. unfold sid. lia. Qed.
Lemma norm_dir_range d : 0 <= norm_dir d <= 1.
Proof. unfold norm_dir. destruct (d =? 0); lia. Qed.

(** What the peer has actually delivered since the last (re)start. *)

Record Ghost := mkGhost {
  g_phase : Z;                 (** 0 early (0-RTT), 1 rejected — awaiting the new parameters, 2 main *)
  g_par : Params;              (** the transport parameters in force *)
  g_md : list Z;               (** connection limits delivered: initial_max_data and MAX_DATA values *)
  g_msd : list (Z * Z);        (** MAX_STREAM_DATA (id, value) frames delivered *)
  g_ms : list (Z * Z);         (** stream-count limits delivered (dir, count): parameters and MAX_STREAMS *)
  g_closed : Z                 (** final offsets of streams already removed from the map *)
}.

Ltac gcbn := cbn [g_phase g_par g_md g_msd g_ms g_closed] in *.

Lemma ghost_eta g : mkGhost g.(g_phase) g.(g_par) g.(g_md) g.(g_msd) g.(g_ms) g.(g_closed) = g.
Proof. destruct g; reflexivity. Qed.

Definition lmax (l : list Z) : Z := fold_right Z.max 0 l.
Definition kmax (k : Z) (l : list (Z * Z)) : Z :=
  lmax (map snd (filter (fun kv : Z * Z => fst kv =? k) l)).

Lemma lmax_cons v l : lmax (v :: l) = Z.max v (lmax l).
Proof. reflexivity. Qed.

Lemma kmax_cons k k' v l :
  kmax k ((k', v) :: l) = if k' =? k then Z.max v (kmax k l) else kmax k l.
Proof. unfold kmax. cbn [filter fst]. destruct (k' =? k); reflexivity. Qed.

Lemma lmax_nonneg l : 0 <= lmax l.
Proof. unfold lmax. induction l as [|a t IH]; cbn [fold_right]; lia. Qed.

Lemma kmax_nonneg k l : 0 <= kmax k l.
Proof. apply lmax_nonneg. Qed.

Definition par_for (p : Params) (sd id : Z) : Z :=
  if id_dir id =? 1 then p.(p_sd_uni)
  else if id_init id =? sd then p.(p_sd_bidi_remote)
  else p.(p_sd_bidi_local).

(** The limit of stream [id] "current" in the sense of the property: the largest value conveyed in
    the transport parameters or in MAX_STREAM_DATA frames that actually arrived. *)
Definition delivered_stream_limit (g : Ghost) (sd id : Z) : Z :=
  Z.max (par_for g.(g_par) sd id) (kmax id g.(g_msd)).

Definition pge_params (p q : Params) : bool :=
  (q.(p_max_data) <=? p.(p_max_data)) && (q.(p_streams_bidi) <=? p.(p_streams_bidi))
  && (q.(p_streams_uni) <=? p.(p_streams_uni)) && (q.(p_sd_bidi_local) <=? p.(p_sd_bidi_local))
  && (q.(p_sd_bidi_remote) <=? p.(p_sd_bidi_remote)) && (q.(p_sd_uni) <=? p.(p_sd_uni)).

Definition in_map_remote (s : State) (id : Z) : bool :=
  negb (id_init id =? s.(side)) && match lookup id s.(send) with Some _ => true | None => false end.

(** The application uses a remote stream that exists only after [accept] returned it. *)
Definition app_ok (s : State) (id : Z) : bool :=
  (0 <=? id) && (negb (in_map_remote s id) || (id_index id <? s.(next_reported_bi))).

(** Application calls on one stream; operations that deliver nothing from the peer (open,
    transmit, set_send_window, poll, observe, Retry). *)
Definition is_app (c : Z) : bool := (c =? 3) || (c =? 4) || (c =? 5).
Definition is_neutral (c : Z) : bool :=
  (c =? 2) || (c =? 9) || (c =? 13) || (c =? 15) || (c =? 19) || (c =? 21).

(** Admissible operations (the discipline of [Connection], see Model/FlowSend.v [wf_static]). *)
Definition adm (g : Ghost) (s : State) (op : list Z) : bool :=
  let c := arg op 0 in
  let id := arg op 1 in
  if g.(g_phase) =? 1 then (c =? 1) && params_valid (params_of op)
  else if c =? 21 then (g.(g_phase) =? 0) && (s.(side) =? 0)
  else if is_neutral c then true
  else if is_app c then app_ok s id && (0 <=? arg op 2)
  else if c =? 1 then (g.(g_phase) =? 0) && params_valid (params_of op) && pge_params (params_of op) g.(g_par)
  else if c =? 14 then g.(g_phase) =? 0
  else if c =? 6 then is_varint id
  else if c =? 7 then (0 <=? id) && (0 <=? arg op 2)
  else if c =? 8 then 0 <=? arg op 2
  else if (c =? 10) || (c =? 11) || (c =? 17) || (c =? 18) then true
  else if c =? 16 then (0 <=? id) && is_varint (arg op 2)
  else false.

(** The final offset of [id] if the step removed it, else 0; [frame_id]: the stream of the live
    frame at index [k], -1 if there is none. *)
Definition removed_off (id : Z) (s s' : State) : Z :=
  match lookup id s.(send), lookup id s'.(send) with
  | Some (Some x), None => x.(s_offset)
  | _, _ => 0
  end.

Definition frame_id (k : Z) (s : State) : Z :=
  if k <? 0 then -1
  else match log_get (Z.to_nat k) s.(log) with Some ((id, _, _, _), _) => id | None => -1 end.

(** Ghost update for an executed operation ([s] before, [s'] after, [r] the result). *)
Definition gupd (g : Ghost) (s : State) (op : list Z) (s' : State) (r : list Z) : Ghost :=
  let c := arg op 0 in
  let id := arg op 1 in
  if c =? 14 then mkGhost 1 g.(g_par) [] [] g.(g_ms) 0
  else if c =? 1 then
    let p := params_of op in
    if params_valid p then
      mkGhost 2 p (p.(p_max_data) :: g.(g_md)) g.(g_msd)
              ((0, p.(p_streams_bidi)) :: (1, p.(p_streams_uni))
               :: (if g.(g_phase) =? 1 then [] else g.(g_ms))) g.(g_closed)
    else g
  else
    let ph := if (g.(g_phase) =? 0) && (is_neutral c || (is_app c && id_local s.(side) id))
              then 0 else 2 in
    let md := if (c =? 6) && is_varint id then id :: g.(g_md) else g.(g_md) in
    let msd := if (c =? 7) && (arg r 0 =? 0) then (id, arg op 2) :: g.(g_msd) else g.(g_msd) in
    let ms := if (c =? 8) && (arg r 0 =? 0) then (norm_dir id, arg op 2) :: g.(g_ms) else g.(g_ms) in
    let cl := if c =? 10 then g.(g_closed) + removed_off (frame_id id s) s s'
              else if c =? 17 then g.(g_closed) + removed_off id s s'
              else g.(g_closed) in
    mkGhost ph g.(g_par) md msd ms cl.

(** Inadmissible operations are skipped; a panic stops the machine in the state it was in. *)
Definition gstep (sg : State * Ghost) (op : list Z) : State * Ghost :=
  let '(s, g) := sg in
  if adm g s op then
    match apply op s with
    | Some (s', r) => (s', gupd g s op s' r)
    | None => (s, g)
    end
  else (s, g).

Definition ghost0 (p : Params) : Ghost :=
  mkGhost 0 p [p.(p_max_data)] [] [(0, p.(p_streams_bidi)); (1, p.(p_streams_uni))] 0.

Definition start (sd mrb sw : Z) (p0 : Params) : State * Ghost :=
  (do_set_params p0 (init sd mrb sw), ghost0 p0).

Definition grun (i : ops) (sg : State * Ghost) : State * Ghost := fold_left gstep i sg.

(** The phase stays early only if it was and [b] holds. *)
Definition stay (g : Ghost) (b : bool) : Ghost :=
  mkGhost (if (g.(g_phase) =? 0) && b then 0 else 2) g.(g_par) g.(g_md) g.(g_msd) g.(g_ms) g.(g_closed).

Lemma removed_off_kept id s s' :
  (lookup id s.(send) <> None -> lookup id s'.(send) <> None) -> removed_off id s s' = 0.
Proof.
  unfold removed_off. destruct (lookup id (send s)) as [[x|]|], (lookup id (send s')); try reflexivity.
  intros H. destruct H; [discriminate|reflexivity].
Qed.

Lemma do_log_cases ack k s s' r :
  do_log ack k s = Some (s', r) ->
  s' = s \/
  exists id a b fin l,
    log_get (Z.to_nat k) s.(log) = Some ((id, a, b, fin), l) /\ frame_id k s = id
    /\ (if ack then do_ack else do_lost) (id, a, b, fin) (set_log l s) = Some (s', r).
Proof.
  unfold do_log, frame_id. destruct (k <? 0); [intros E; injection E as <- _; left; reflexivity|].
  destruct (log_get (Z.to_nat k) (log s)) as [[[[[id a] b] fin] l]|]; intros E.
  - right. exists id, a, b, fin, l. auto.
  - injection E as <- _. left. reflexivity.
Qed.

(** The case [c = n] of a goal [adm-condition -> apply-result = Some (s', r) -> _], the other
    opcode tests decided; [A] and [Ap] name the two hypotheses. *)
Ltac opcode c n :=
  destruct (Z.eqb_spec c n) as [->|_];
  [red_eqb; cbv iota; cbn [orb andb negb]; rewrite ?Bool.andb_false_r; cbv iota; intros A Ap|].

(** Premises in the order of the opcodes; acknowledging or losing (10, 11) a frame that is not in
    the log changes nothing. *)
Lemma gstep_cases (P : State -> Ghost -> Prop) s g op :
  let g2 := mkGhost 2 g.(g_par) g.(g_md) g.(g_msd) g.(g_ms) g.(g_closed) in
  P s g ->
  (forall p, g.(g_phase) = 1 -> params_valid p = true ->
     P (do_set_params p s)
       (mkGhost 2 p (p.(p_max_data) :: g.(g_md)) g.(g_msd)
                [(0, p.(p_streams_bidi)); (1, p.(p_streams_uni))] g.(g_closed))) ->
  (forall p, g.(g_phase) = 0 -> params_valid p = true -> pge_params p g.(g_par) = true ->
     P (do_set_params p s)
       (mkGhost 2 p (p.(p_max_data) :: g.(g_md)) g.(g_msd)
                ((0, p.(p_streams_bidi)) :: (1, p.(p_streams_uni)) :: g.(g_ms)) g.(g_closed))) ->
  (forall d s' r, g.(g_phase) <> 1 -> do_open d s = Some (s', r) -> P s' (stay g true)) ->
  (forall id n s' r, g.(g_phase) <> 1 -> app_ok s id = true -> 0 <= n ->
     do_write id n s = Some (s', r) -> P s' (stay g (id_local s.(side) id))) ->
  (forall id s' r, g.(g_phase) <> 1 -> app_ok s id = true ->
     do_finish id s = Some (s', r) -> P s' (stay g (id_local s.(side) id))) ->
  (forall id s' r, g.(g_phase) <> 1 -> app_ok s id = true ->
     do_reset id s = Some (s', r) -> P s' (stay g (id_local s.(side) id))) ->
  (forall v, g.(g_phase) <> 1 -> is_varint v = true ->
     P (do_max_data v s) (mkGhost 2 g.(g_par) (v :: g.(g_md)) g.(g_msd) g.(g_ms) g.(g_closed))) ->
  (forall id v s' r, g.(g_phase) <> 1 -> 0 <= id -> 0 <= v ->
     do_max_stream_data id v s = Some (s', r) ->
     P s' (mkGhost 2 g.(g_par) g.(g_md) (if arg r 0 =? 0 then (id, v) :: g.(g_msd) else g.(g_msd))
                   g.(g_ms) g.(g_closed))) ->
  (forall d c s' r, g.(g_phase) <> 1 -> 0 <= c ->
     do_max_streams MAX_STREAM_COUNT_MODEL d c s = Some (s', r) ->
     P s' (mkGhost 2 g.(g_par) g.(g_md) g.(g_msd)
                   (if arg r 0 =? 0 then (norm_dir d, c) :: g.(g_ms) else g.(g_ms)) g.(g_closed))) ->
  (forall maxb s' r, g.(g_phase) <> 1 -> do_transmit maxb s = Some (s', r) -> P s' (stay g true)) ->
  (forall k id a b fin l s' r, g.(g_phase) <> 1 ->
     log_get (Z.to_nat k) s.(log) = Some ((id, a, b, fin), l) ->
     do_ack (id, a, b, fin) (set_log l s) = Some (s', r) ->
     P s' (mkGhost 2 g.(g_par) g.(g_md) g.(g_msd) g.(g_ms) (g.(g_closed) + removed_off id s s'))) ->
  (forall k f l s' r, g.(g_phase) <> 1 ->
     log_get (Z.to_nat k) s.(log) = Some (f, l) -> do_lost f (set_log l s) = Some (s', r) ->
     P s' g2) ->
  (g.(g_phase) <> 1 -> P s g2) ->
  (forall w, g.(g_phase) <> 1 -> P (set_send_window w s) (stay g true)) ->
  (forall s', g.(g_phase) = 0 -> do_reject s = Some s' ->
     P s' (mkGhost 1 g.(g_par) [] [] g.(g_ms) 0)) ->
  (forall s' r, g.(g_phase) <> 1 -> do_poll s = Some (s', r) -> P s' (stay g true)) ->
  (forall id code, g.(g_phase) <> 1 -> 0 <= id -> is_varint code = true ->
     P (do_stop_sending id code s) g2) ->
  (forall id s' r, g.(g_phase) <> 1 -> do_reset_acked id s = Some (s', r) ->
     P s' (mkGhost 2 g.(g_par) g.(g_md) g.(g_msd) g.(g_ms) (g.(g_closed) + removed_off id s s'))) ->
  (forall d s' r, g.(g_phase) <> 1 -> do_accept d s = Some (s', r) -> P s' g2) ->
  (forall o, g.(g_phase) <> 1 -> observe s = Some o -> P s (stay g true)) ->
  (forall s', g.(g_phase) = 0 -> s.(side) = 0 -> do_retry s = Some s' -> P s' (stay g true)) ->
  P (fst (gstep (s, g) op)) (snd (gstep (s, g) op)).
Proof.
  intros g2 Hskip H1r H1a H2 H3 H4 H5 H6 H7 H8 H9 H10 H11 Hnone H13 H14 H15 H16 H17 H18 H19 H21.
  unfold gstep. destruct (adm g s op) eqn:A; [|exact Hskip].
  destruct (apply op s) as [[s' r]|] eqn:Ap; [|exact Hskip]. cbn [fst snd].
  revert A Ap. unfold adm, apply, gupd, is_neutral, is_app, stay in *.
  generalize (arg op 0). intros c.
  destruct (Z.eqb_spec (g_phase g) 1) as [P1|P1].
  { intros A. apply andb_prop in A as [C V]. apply Z.eqb_eq in C. subst c. red_eqb. cbv iota.
    rewrite V. intros E. injection E as <- <-. apply H1r; assumption. }
  opcode c 1.
  { apply andb_prop in A as [A1 A3]. apply andb_prop in A1 as [A1 A2]. rewrite A2 in *.
    injection Ap as <- <-. apply H1a; auto. lia. }
  opcode c 2. { eapply H2; eassumption. }
  opcode c 3. { apply andb_prop in A as [A1 A2]. eapply H3; eauto. lia. }
  opcode c 4. { apply andb_prop in A as [A1 A2]. eapply H4; eauto. }
  opcode c 5. { apply andb_prop in A as [A1 A2]. eapply H5; eauto. }
  opcode c 6. { rewrite A in *. injection Ap as <- <-. apply H6; assumption. }
  opcode c 7. { eapply H7; eauto; lia. }
  opcode c 8. { eapply H8; eauto; lia. }
  opcode c 9. { eapply H9; eassumption. }
  opcode c 10.
  { destruct (do_log_cases _ _ _ _ _ Ap) as [->|(id & a & b & fin & l & G & -> & D)].
    - rewrite removed_off_kept, Z.add_0_r by auto. apply Hnone; assumption.
    - eapply H10; eassumption. }
  opcode c 11.
  { destruct (do_log_cases _ _ _ _ _ Ap) as [->|(id & a & b & fin & l & G & _ & D)].
    - apply Hnone; assumption.
    - eapply H11; eassumption. }
  opcode c 13. { injection Ap as <- <-. apply H13; assumption. }
  opcode c 14.
  { destruct (do_reject s) as [s1|]; [|discriminate]. injection Ap as <- <-.
    apply H14; [lia|reflexivity]. }
  opcode c 15. { eapply H15; eassumption. }
  opcode c 16.
  { apply andb_prop in A as [A1 A2]. rewrite A2 in *. injection Ap as <- <-. apply H16; auto. lia. }
  opcode c 17. { eapply H17; eassumption. }
  opcode c 18. { eapply H18; eassumption. }
  opcode c 19.
  { destruct (observe s) as [o|]; [|discriminate]. injection Ap as <- <-.
    apply (H19 o); [assumption|reflexivity]. }
  opcode c 21.
  { apply andb_prop in A as [A1 A2]. destruct (do_retry s) as [s1|]; [|discriminate].
    injection Ap as <- <-. apply H21; [lia|lia|reflexivity]. }
  cbn [orb]. discriminate.
Qed.

(** [early_facts]: remote streams have no [Send] yet, no MAX_STREAM_DATA arrived; phase 0: the
    limits of the remembered parameters, every local stream opened still in the map (what
    [zero_rtt_rejected] unwraps); phase 1: all reset.  [Inv]: [i_par], [i_md], [i_cnt] tie the limits
    to what was delivered; [i_ds], [i_sum], [i_str] are the credit properties; [i_keys]: local ids
    lie below the next index. *)

Definition early_facts (s : State) (g : Ghost) : Prop :=
  (forall id v, lookup id s.(send) = Some v -> id_init id <> s.(side) -> v = None)
  /\ g.(g_msd) = []
  /\ (g.(g_phase) = 0 ->
        s.(max_bi) = g.(g_par).(p_streams_bidi) /\ s.(max_uni) = g.(g_par).(p_streams_uni)
        /\ forall d i, 0 <= d <= 1 -> 0 <= i < get_next d s -> lookup (sid s.(side) d i) s.(send) <> None)
  /\ (g.(g_phase) = 1 ->
        s.(next_bi) = 0 /\ s.(next_uni) = 0 /\ s.(data_sent) = 0 /\ s.(max_data) = 0
        /\ s.(unacked_data) = 0
        /\ g.(g_md) = [] /\ g.(g_closed) = 0).

Record Inv (s : State) (g : Ghost) : Prop := mkInv {
  i_side : 0 <= s.(side) <= 1;
  i_phase : 0 <= g.(g_phase) <= 2;
  i_pv : params_valid g.(g_par) = true;
  i_par : s.(sd_uni) = g.(g_par).(p_sd_uni) /\ s.(sd_bidi_local) = g.(g_par).(p_sd_bidi_local)
          /\ s.(sd_bidi_remote) = g.(g_par).(p_sd_bidi_remote);
  i_md : s.(max_data) = lmax g.(g_md);
  i_ds : 0 <= s.(data_sent) <= s.(max_data);
  i_sum : s.(data_sent) = sum_off s.(send) + g.(g_closed);
  i_str : forall id x, lookup id s.(send) = Some (Some x) ->
            0 <= x.(s_offset) <= x.(s_max_data)
            /\ x.(s_max_data) <= delivered_stream_limit g s.(side) id;
  i_cnt : forall d, 0 <= d <= 1 ->
            0 <= get_next d s <= get_max d s /\ get_max d s = kmax d g.(g_ms);
  i_nodup : NoDup (keys s.(send));
  i_keys : forall id, In id (keys s.(send)) ->
             0 <= id /\ (id_init id = s.(side) -> id_index id < get_next (id_dir id) s);
  i_unacked : 0 <= s.(unacked_data);
  i_early : g.(g_phase) <> 2 -> early_facts s g
}.

(** Tuples of fields read: [core] by [Inv]; [frame] is [core] without the map and the byte
    counters (kept by operations on existing streams); [rest] is [core] without the map (kept by
    [sc]); in FlowSendFull.v [hcore] by [HInvL], [kcore] by [SInv], [fcore] both and the log. *)
Definition core (s : State) :=
  (s.(side), s.(max_data), s.(data_sent), s.(unacked_data), s.(send),
   (s.(sd_uni), s.(sd_bidi_local), s.(sd_bidi_remote)),
   (s.(next_bi), s.(next_uni), s.(max_bi), s.(max_uni))).

Definition frame (s : State) :=
  (s.(side), s.(max_data), (s.(sd_uni), s.(sd_bidi_local), s.(sd_bidi_remote)),
   (s.(next_bi), s.(next_uni), s.(max_bi), s.(max_uni))).

Definition rest (s : State) :=
  (s.(side), s.(max_data), s.(data_sent), s.(unacked_data),
   (s.(sd_uni), s.(sd_bidi_local), s.(sd_bidi_remote)),
   (s.(next_bi), s.(next_uni), s.(max_bi), s.(max_uni))).

Lemma early_facts_ext s s' g :
  core s = core s' -> early_facts s g -> early_facts s' g.
Proof.
  unfold core. intros H. injection H as H1 H2 H3 H4 H5 H6 H7 H8 H9 H10 H11 H12.
  unfold early_facts, get_next. rewrite <- H1, <- H2, <- H3, <- H4, <- H5, <- H9, <- H10, <- H11, <- H12.
  auto.
Qed.

Ltac st := unfold put, push_pending in *; st_all.

(** Equality of such tuples across setters of other fields: unfold the derived setters, decide
    their tests, reduce. *)
Ltac unfold_views := unfold core.
Ltac view_eq :=
  unfold_views; unfold put, push_pending, set_next, set_max, set_blocked;
  repeat match goal with |- context [if ?c then _ else _] => destruct c end;
  st_goal; reflexivity.

Lemma lookup_put k id x s :
  lookup k (send (put id x s)) =
  if k =? id then match lookup id (send s) with Some _ => Some (Some x) | None => None end
  else lookup k (send s).
Proof. unfold put. st_goal. apply lookup_update. Qed.

Lemma get_next_set_next d' d v s : 0 <= d <= 1 -> 0 <= d' <= 1 ->
  get_next d' (set_next d v s) = if d' =? d then v else get_next d' s.
Proof.
  unfold get_next, set_next. intros Hd Hd'.
  destruct (d =? 0) eqn:E, (d' =? 0) eqn:E', (d' =? d) eqn:E2; try lia; reflexivity.
Qed.
Lemma get_max_set_next d' d v s : get_max d' (set_next d v s) = get_max d' s.
Proof. unfold get_max, set_next. destruct (d =? 0); reflexivity. Qed.
Lemma get_max_set_max d' d v s : 0 <= d <= 1 -> 0 <= d' <= 1 ->
  get_max d' (set_max d v s) = if d' =? d then v else get_max d' s.
Proof.
  unfold get_max, set_max. intros Hd Hd'.
  destruct (d =? 0) eqn:E, (d' =? 0) eqn:E', (d' =? d) eqn:E2; try lia; reflexivity.
Qed.
Lemma get_next_set_max d' d v s : get_next d' (set_max d v s) = get_next d' s.
Proof. unfold get_next, set_max. destruct (d =? 0); reflexivity. Qed.
(** [core] is a pair: the stream-count fields on the right. *)
Lemma set_next_others d v s : fst (core (set_next d v s)) = fst (core s).
Proof. unfold set_next. destruct (d =? 0); reflexivity. Qed.
Lemma set_max_others d v s : fst (core (set_max d v s)) = fst (core s).
Proof. unfold set_max. destruct (d =? 0); reflexivity. Qed.
Lemma set_blocked_core d v s : core (set_blocked d v s) = core s.
Proof. unfold set_blocked. destruct (d =? 0); reflexivity. Qed.

Lemma inv_entry s g : Inv s g -> forall id x, lookup id s.(send) = Some (Some x) ->
  (0 <= x.(s_offset) <= x.(s_max_data) /\ x.(s_max_data) <= delivered_stream_limit g s.(side) id)
  /\ (g.(g_phase) <> 2 -> id_init id = s.(side)).
Proof.
  intros I id x L. split; [exact (i_str _ _ I id x L)|].
  intros Hp. destruct (i_early _ _ I Hp) as (M1 & _).
  destruct (Z.eq_dec (id_init id) (side s)) as [E|E]; [exact E|]. discriminate (M1 id _ L E).
Qed.

Lemma inv_entries s s' g :
  Inv s g -> frame s' = frame s -> keys s'.(send) = keys s.(send) ->
  s'.(data_sent) - sum_off s'.(send) = s.(data_sent) - sum_off s.(send) ->
  0 <= s'.(data_sent) <= s.(max_data) -> 0 <= s'.(unacked_data) ->
  (g.(g_phase) = 1 -> s'.(data_sent) = 0 /\ s'.(unacked_data) = 0) ->
  (forall id x, lookup id s'.(send) = Some (Some x) ->
     (0 <= x.(s_offset) <= x.(s_max_data) /\ x.(s_max_data) <= delivered_stream_limit g s.(side) id)
     /\ (g.(g_phase) <> 2 -> id_init id = s.(side))) ->
  Inv s' g.
Proof.
  intros [A B C D E1 F G H I J K L M] Hf Hk Hsum Hds Hu Hp1 Hent.
  unfold frame in Hf. injection Hf as F1 F2 F3 F4 F5 F6 F7 F8 F9.
  constructor; unfold early_facts, get_next, get_max in *;
    rewrite ?F1, ?F2, ?F3, ?F4, ?F5, ?F6, ?F7, ?F8, ?F9, ?Hk; try assumption.
  - lia.
  - intros id x Lk. apply Hent. exact Lk.
  - intros Hp. destruct (M Hp) as (M1 & M2 & M3 & M4).
    split; [|split; [exact M2|split]].
    + intros id [x|] Lk Hr; [|reflexivity]. elim Hr. apply (Hent id x Lk). exact Hp.
    + intros P0. destruct (M3 P0) as (Q1 & Q2 & Q3). split; [exact Q1|split; [exact Q2|]].
      intros d i Hd Hi Hn. apply (Q3 d i Hd Hi).
      apply lookup_none_keys. rewrite <- Hk. apply lookup_none_keys. exact Hn.
    + intros P1. destruct (M4 P1) as (N1 & N2 & _ & N4 & _ & N6 & N7). destruct (Hp1 P1) as (Z1 & Z2).
      repeat split; assumption.
Qed.

Lemma inv_unacked s g v :
  Inv s g -> 0 <= v -> g.(g_phase) <> 1 -> Inv (set_unacked_data v s) g.
Proof.
  intros I Hv Hp. apply (inv_entries s _ g I); try reflexivity.
  - exact (i_ds _ _ I).
  - exact Hv.
  - contradiction.
  - exact (inv_entry s g I).
Qed.

Lemma inv_update_entry s g s' id old x' :
  Inv s g -> lookup id s.(send) = Some old ->
  frame s' = frame s -> s'.(send) = update id (Some x') s.(send) ->
  s'.(data_sent) - s.(data_sent) = x'.(s_offset) - offo old ->
  s'.(unacked_data) - s.(unacked_data) = x'.(s_offset) - offo old ->
  0 <= x'.(s_offset) - offo old <= s.(max_data) - s.(data_sent) ->
  x'.(s_offset) <= x'.(s_max_data) <= delivered_stream_limit g s.(side) id ->
  (g.(g_phase) <> 2 -> id_init id = s.(side)) ->
  Inv s' g.
Proof.
  intros I L Hf Hs Hd Hu Hw Hx Hloc.
  pose proof (i_ds _ _ I) as Ids. pose proof (i_unacked _ _ I) as Iu.
  assert (Ho : 0 <= offo old).
  { destruct old as [x|]; [|cbn; lia]. destruct (inv_entry s g I id x L) as ((X & _) & _). cbn. lia. }
  apply (inv_entries s s' g I Hf); rewrite ?Hs.
  - apply keys_update.
  - rewrite sum_off_update, L. cbn [offo]. lia.
  - lia.
  - lia.
  - intros P1. destruct (i_early _ _ I ltac:(lia)) as (_ & _ & _ & M4).
    destruct (M4 P1) as (_ & _ & N3 & N4 & N5 & _). lia.
  - intros k y Lk. rewrite lookup_update in Lk. destruct (Z.eqb_spec k id) as [->|Ne].
    + rewrite L in Lk. injection Lk as <-.
      split; [lia|exact Hloc].
    + exact (inv_entry s g I k y Lk).
Qed.

Definition entry_rel (a b : option (option Send)) : Prop :=
  match a, b with
  | None, None => True
  | Some None, Some None => True
  | Some (Some x), Some (Some x') => x'.(s_offset) = x.(s_offset) /\ x'.(s_max_data) = x.(s_max_data)
  | _, _ => False
  end.

(** Same credit: [s'] differs only in fields [Inv] does not read and in per-stream fields other
    than offset and limit. *)
Definition sc (s s' : State) : Prop :=
  rest s = rest s' /\ keys s.(send) = keys s'.(send) /\ sum_off s.(send) = sum_off s'.(send)
  /\ forall id, entry_rel (lookup id s.(send)) (lookup id s'.(send)).

Lemma entry_rel_refl a : entry_rel a a.
Proof. destruct a as [[x|]|]; cbn; auto. Qed.

Lemma sc_refl s : sc s s.
Proof. repeat split; auto. intros. apply entry_rel_refl. Qed.

Lemma sc_trans a b c : sc a b -> sc b c -> sc a c.
Proof.
  intros (R1 & K1 & S1 & E1) (R2 & K2 & S2 & E2). repeat split; try congruence.
  intros id. specialize (E1 id). specialize (E2 id).
  destruct (lookup id (send a)) as [[x|]|], (lookup id (send b)) as [[y|]|], (lookup id (send c)) as [[z|]|];
    cbn in *; try tauto. destruct E1, E2. split; congruence.
Qed.

Lemma rest_fields s1 s : rest s1 = rest s ->
  frame s1 = frame s /\ data_sent s1 = data_sent s /\ unacked_data s1 = unacked_data s.
Proof. unfold rest, frame. intros H. injection H as. repeat split; congruence. Qed.

Lemma sc_core s s' : core s = core s' -> sc s s'.
Proof.
  unfold core. intros H. injection H as H1 H2 H3 H4 H5 H6 H7 H8 H9 H10 H11 H12.
  unfold sc, rest. rewrite H1, H2, H3, H4, H5, H6, H7, H8, H9, H10, H11, H12.
  repeat split. intros. apply entry_rel_refl.
Qed.

Ltac sc_view_eq := apply sc_core; view_eq.

Lemma sc_put s s' id x x' :
  core s' = core (put id x' s) -> lookup id s.(send) = Some (Some x) ->
  x'.(s_offset) = x.(s_offset) -> x'.(s_max_data) = x.(s_max_data) ->
  sc s s'.
Proof.
  intros Hc L Ho Hm. apply (sc_trans _ (put id x' s)); [|apply sc_core; symmetry; exact Hc].
  unfold put, sc. st_goal. split; [reflexivity|]. split; [|split].
  - symmetry. apply keys_update.
  - rewrite sum_off_update, L. cbn [offo]. lia.
  - intros k. rewrite lookup_update. destruct (Z.eqb_spec k id) as [->|Ne].
    + rewrite L. cbn. auto.
    + apply entry_rel_refl.
Qed.

Lemma sc_inv s s' g : Inv s g -> sc s s' -> Inv s' g.
Proof.
  intros I (R & K & S & E). destruct (rest_fields _ _ (eq_sym R)) as (Hf & Hd & Hu).
  apply (inv_entries s s' g I Hf); rewrite ?Hd, ?Hu; auto.
  - lia.
  - exact (i_ds _ _ I).
  - exact (i_unacked _ _ I).
  - intros P1. destruct (i_early _ _ I ltac:(lia)) as (_ & _ & _ & M4).
    destruct (M4 P1) as (_ & _ & N3 & _ & N5 & _). auto.
  - intros id x' Lk. specialize (E id). rewrite Lk in E.
    destruct (lookup id (send s)) as [[x|]|] eqn:L; cbn in E; try tauto. destruct E as [-> ->].
    exact (inv_entry s g I id x L).
Qed.

Lemma Inv_ext s s' g : core s = core s' -> Inv s g -> Inv s' g.
Proof. intros H I. exact (sc_inv _ _ _ I (sc_core _ _ H)). Qed.

Lemma par_nonneg g sd id : params_valid g.(g_par) = true -> 0 <= par_for g.(g_par) sd id.
Proof.
  unfold params_valid, is_varint, par_for. intros H.
  destruct (id_dir id =? 1), (id_init id =? sd); lia.
Qed.

Lemma msd_par s g id : Inv s g -> max_send_data s id = par_for g.(g_par) s.(side) id.
Proof.
  intros I. destruct (i_par _ _ I) as (A & B & C). unfold max_send_data, par_for.
  rewrite A, B, C. reflexivity.
Qed.

Lemma touch_spec id s x s1 :
  touch id s = Some (x, s1) ->
  lookup id s.(send) = Some (Some x) /\ s1 = s
  \/ lookup id s.(send) = Some None /\ x = new_send (max_send_data s id) /\ s1 = put id x s.
Proof.
  unfold touch, put. destruct (lookup id (send s)) as [[y|]|]; intros E; [| |discriminate];
    injection E as <- <-; auto.
Qed.

Lemma touch_inv s g id x s1 :
  Inv s g -> touch id s = Some (x, s1) -> (g.(g_phase) <> 2 -> id_init id = s.(side)) ->
  Inv s1 g /\ lookup id s1.(send) = Some (Some x) /\ rest s1 = rest s.
Proof.
  intros I T Hloc. destruct (touch_spec _ _ _ _ T) as [(L & ->)|(L & -> & ->)]; [auto|].
  split; [|split; [rewrite lookup_put, Z.eqb_refl, L|]; reflexivity].
  pose proof (i_ds _ _ I). pose proof (par_nonneg g (side s) id (i_pv _ _ I)).
  apply (inv_update_entry s g _ id None (new_send (max_send_data s id)) I L);
    try reflexivity; try exact Hloc; unfold put; st_goal; cbn [new_send offo s_offset s_max_data]; try lia.
  rewrite (msd_par _ _ _ I). unfold delivered_stream_limit. lia.
Qed.

Lemma inv_phase2 s g :
  Inv s g -> Inv s (mkGhost 2 g.(g_par) g.(g_md) g.(g_msd) g.(g_ms) g.(g_closed)).
Proof.
  intros [A B C D E1 F G H I J K1 L M]. constructor; gcbn; try assumption; try lia.
Qed.

Lemma write_limit_cases s limit : write_limit s = Some limit ->
  data_sent s <= max_data s
  /\ limit = Z.min (s.(max_data) - s.(data_sent)) (Z.max 0 (s.(send_window) - s.(unacked_data))).
Proof.
  unfold write_limit. destruct (max_data s <? data_sent s) eqn:E; [discriminate|].
  intros H. injection H as <-. split; [lia|reflexivity].
Qed.

Lemma write_limit_some s g : Inv s g ->
  write_limit s = Some (Z.min (s.(max_data) - s.(data_sent)) (Z.max 0 (s.(send_window) - s.(unacked_data)))).
Proof.
  intros I. unfold write_limit. pose proof (i_ds _ _ I).
  destruct (max_data s <? data_sent s) eqn:E; [lia|reflexivity].
Qed.

Lemma do_write_cases id n s s' r :
  do_write id n s = Some (s', r) ->
  (exists limit x s1,
     write_limit s = Some limit /\ touch id s = Some (x, s1) /\ limit <> 0
     /\ x.(s_state) = 0 /\ x.(s_offset) < x.(s_max_data) /\
     let w := Z.min n (Z.min limit (x.(s_max_data) - x.(s_offset))) in
     let s2 := set_unacked_data (s1.(unacked_data) + w) (set_data_sent (s1.(data_sent) + w)
                 (put id (set_s_ulen (x.(s_ulen) + w) (set_s_offset (x.(s_offset) + w) x)) s1)) in
     r = [0; w] /\ s' = if is_pending x then s2 else push_pending id s2)
  \/ (forall w, r <> [0; w]) /\
     (s' = s \/ exists x s1, touch id s = Some (x, s1) /\
        (s' = s1 \/ s' = set_conn_blocked (id :: s1.(conn_blocked)) (put id (set_s_cb true x) s1))).
Proof.
  unfold do_write, ok. destruct (write_limit s) as [limit|]; [|discriminate].
  destruct (touch id s) as [[x s1]|].
  2:{ intros E. injection E as <- <-. right. split; [discriminate|auto]. }
  (* a refusal: the state after [touch], any result but [0; w] *)
  match goal with |- _ -> _ \/ ?B =>
    assert (Hno : forall r0, (forall w, r0 <> [0; w]) -> Some (s1, r0) = Some (s', r) -> B) end.
  { intros r0 Hr E. injection E as <- <-. split; [exact Hr|]. right. exists x, s1. auto. }
  destruct (limit =? 0) eqn:El.
  { destruct (s_cb x); [right; apply (Hno [1]); [discriminate|assumption]|].
    intros E. injection E as <- <-. right. split; [discriminate|]. right. exists x, s1. auto. }
  destruct (negb (s_state x =? 0)) eqn:Est; [right; apply (Hno [3]); [discriminate|assumption]|].
  destruct (s_stop x) as [c|]; [right; apply (Hno [2; c]); [discriminate|assumption]|].
  destruct (s_max_data x <? s_offset x) eqn:Eb; [discriminate|].
  destruct (s_max_data x - s_offset x =? 0) eqn:Eb0; [right; apply (Hno [1]); [discriminate|assumption]|].
  intros E. injection E as <- <-. left. exists limit, x, s1. repeat split; auto; lia.
Qed.

Lemma write_inv s g id n s' r :
  Inv s g -> do_write id n s = Some (s', r) -> 0 <= n ->
  (g.(g_phase) <> 2 -> id_init id = s.(side)) -> Inv s' g.
Proof.
  intros I W Hn Hloc.
  destruct (do_write_cases _ _ _ _ _ W) as [(limit & x & s1 & WL & T & _ & _ & Hb & Er & ->)|(_ & [->|(x & s1 & T & E)])];
    [| exact I |]; destruct (touch_inv _ _ _ _ _ I T Hloc) as (I1 & L1 & R1).
  - rewrite (write_limit_some _ _ I) in WL. injection WL as <-.
    destruct (rest_fields _ _ R1) as (Rf & Rd & Ru). unfold frame in Rf. injection Rf as Rs Rm _ _ _ _ _ _ _.
    destruct (inv_entry s1 g I1 id x L1) as ((_ & Hx) & _). pose proof (i_ds _ _ I1) as Hds.
    eapply (inv_update_entry s1 g _ id (Some x) _ I1 L1); try (destruct (is_pending x); reflexivity).
    1-4: destruct (is_pending x); unfold push_pending, put; st_goal; cbn [offo]; lia.
    rewrite Rs. exact Hloc.
  - destruct E as [->| ->]; [exact I1|]. eapply sc_inv; [exact I1|].
    apply (sc_put s1 _ id x (set_s_cb true x)); [view_eq|exact L1|reflexivity..].
Qed.

Lemma max_data_inv s g v :
  Inv s g -> g.(g_phase) = 2 -> 0 <= v ->
  Inv (do_max_data v s) (mkGhost 2 g.(g_par) (v :: g.(g_md)) g.(g_msd) g.(g_ms) g.(g_closed)).
Proof.
  intros [A B C D E1 F G H I J K1 L M] Hp Hv.
  constructor; unfold do_max_data, get_next, get_max, delivered_stream_limit in *; st_goal;
    try assumption; try (cbn [g_phase]; lia).
  cbn [g_md]. rewrite lmax_cons. lia.
Qed.

Lemma remote_bi_spec sd n : 0 <= sd <= 1 ->
  NoDup (keys (remote_bi sd n [])) /\
  (forall k, In k (keys (remote_bi sd n [])) -> exists j, 0 <= j < Z.of_nat n /\ k = sid (1 - sd) 0 j) /\
  (forall k v, lookup k (remote_bi sd n []) = Some v -> v = None) /\
  sum_off (remote_bi sd n []) = 0.
Proof.
  intros Hs. induction n as [|n IH]; cbn [remote_bi].
  - repeat split; cbn; try constructor; try tauto; try discriminate.
  - destruct IH as (N & K & V & S).
    assert (Ln : lookup (sid (1 - sd) 0 (Z.of_nat n)) (remote_bi sd n []) = None).
    { apply lookup_none_keys. intros Hin. destruct (K _ Hin) as (j & Hj & E). unfold sid in E. lia. }
    split; [apply NoDup_insert; assumption|]. split; [|split].
    + intros k Hin. apply keys_insert in Hin. destruct Hin as [->|Hin].
      * exists (Z.of_nat n). lia.
      * destruct (K _ Hin) as (j & Hj & E). exists j. lia.
    + intros k v Lk. rewrite lookup_insert in Lk by assumption.
      destruct (k =? sid (1 - sd) 0 (Z.of_nat n)); [congruence|eapply V; eassumption].
    + rewrite sum_off_insert_none. exact S.
Qed.

Lemma remote_bi_allnone sd n : Forall (fun kv : Z * option Send => snd kv = None) (remote_bi sd n []).
Proof.
  induction n as [|n IH]; cbn [remote_bi]; [constructor|].
  apply Forall_insert; [reflexivity|exact IH].
Qed.

Lemma set_remote_limits_same sd lim m :
  (forall k x, In (k, Some x) m -> id_init k = sd) -> set_remote_limits sd lim m = m.
Proof.
  intros H. unfold set_remote_limits. rewrite <- (map_id m) at 2. apply map_ext_in.
  intros [k [x|]] Hin; [|reflexivity]. rewrite (H k x Hin), Z.eqb_refl, Bool.andb_false_r. reflexivity.
Qed.

Lemma set_remote_limits_none sd lim m :
  Forall (fun kv : Z * option Send => snd kv = None) m -> set_remote_limits sd lim m = m.
Proof.
  intros H. apply set_remote_limits_same. intros k x Hin.
  rewrite Forall_forall in H. discriminate (H _ Hin).
Qed.

Lemma kmax_two d b u : 0 <= d <= 1 -> 0 <= b -> 0 <= u ->
  kmax d [(0, b); (1, u)] = if d =? 0 then b else u.
Proof.
  intros Hd Hb Hu. rewrite !kmax_cons. change (kmax d []) with 0.
  destruct (0 =? d) eqn:E0, (1 =? d) eqn:E1, (d =? 0) eqn:E; lia.
Qed.

(** The remote streams of a new state have no [Send] yet, so [set_params] leaves the map alone. *)
Lemma start_eq sd mrb sw p :
  do_set_params p (init sd mrb sw) =
  mkState sd mrb 0 0 p.(p_streams_bidi) p.(p_streams_uni) (Z.max 0 p.(p_max_data)) 0 0 sw 0
          p.(p_sd_uni) p.(p_sd_bidi_local) p.(p_sd_bidi_remote) false false
          (remote_bi sd (Z.to_nat mrb) []) [] [] [] false 0 0 [].
Proof.
  rewrite <- (set_remote_limits_none sd p.(p_sd_bidi_local) _ (remote_bi_allnone sd (Z.to_nat mrb))) at 1.
  reflexivity.
Qed.

Lemma inv_start sd mrb sw p0 :
  0 <= sd <= 1 -> params_valid p0 = true ->
  Inv (fst (start sd mrb sw p0)) (snd (start sd mrb sw p0)).
Proof.
  intros Hs Hv. unfold start. cbn [fst snd]. rewrite start_eq.
  destruct (remote_bi_spec sd (Z.to_nat mrb) Hs) as (N & K & V & S).
  pose proof Hv as Hv'. unfold params_valid, is_varint in Hv'.
  constructor; unfold early_facts, get_next, get_max, ghost0; st_goal; gcbn; try lia; auto.
  - unfold lmax. cbn [fold_right]. lia.
  - intros id x L. apply V in L. discriminate.
  - intros d Hd. rewrite kmax_two by lia. destruct (d =? 0); lia.
  - intros id Hin. destruct (K _ Hin) as (j & Hj & ->). split; [apply sid_nonneg; lia|].
    intros E. rewrite id_init_sid in E by lia. lia.
  - intros _. repeat split; try lia; auto.
    + intros id v L _. eapply V; eassumption.
    + intros d i Hd Hi. destruct (d =? 0); lia.
Qed.

Lemma inv_remove s g id x :
  Inv s g -> lookup id s.(send) = Some (Some x) ->
  Inv (set_send (remove id s.(send)) s)
      (mkGhost 2 g.(g_par) g.(g_md) g.(g_msd) g.(g_ms) (g.(g_closed) + x.(s_offset))).
Proof.
  intros [A B C D E1 F G H I J K1 L M] Lk.
  constructor; unfold get_next, get_max, delivered_stream_limit in *; st; gcbn; auto; try lia.
  - rewrite sum_off_remove, Lk. cbn [offo]. lia.
  - intros k y Ly. rewrite lookup_remove in Ly by exact J. destruct (k =? id); [discriminate|exact (H k y Ly)].
  - apply NoDup_remove. exact J.
  - intros k Hk. apply K1. eapply keys_remove_subset. exact Hk.
Qed.

Lemma inv_open s g d :
  Inv s g -> g.(g_phase) <> 1 -> 0 <= d <= 1 -> get_next d s < get_max d s ->
  lookup (sid s.(side) d (get_next d s)) s.(send) = None ->
  Inv (set_send (insert (sid s.(side) d (get_next d s)) None s.(send))
         (set_next d (get_next d s + 1) s)) g.
Proof.
  intros I Hp1 Hd Hlt Ln. pose proof (i_side _ _ I) as Hs.
  set (n := get_next d s) in *. set (id := sid (side s) d n) in *.
  set (s' := set_send _ _).
  assert (Hnext : forall d', 0 <= d' <= 1 ->
            get_next d' s' = if d' =? d then n + 1 else get_next d' s)
    by (intros d' Hd'; exact (get_next_set_next d' d (n + 1) s Hd Hd')).
  assert (Hmax : forall d', get_max d' s' = get_max d' s)
    by (intros d'; exact (get_max_set_next d' d (n + 1) s)).
  pose proof (set_next_others d (n + 1) s) as Ho. cbn [core fst] in Ho.
  injection Ho as O1 O2 O3 O4 O5 O6 O7 O8.
  assert (Hn : 0 <= n) by (destruct (i_cnt _ _ I d Hd); lia).
  destruct I as [A B C D E1 F G H I J K L M].
  constructor; subst s'; st_goal; rewrite ?O1, ?O2, ?O3, ?O4, ?O6, ?O7, ?O8; try assumption.
  - rewrite sum_off_insert_none. exact G.
  - intros k x Lk. rewrite lookup_insert in Lk by exact Ln.
    destruct (k =? id); [discriminate|exact (H k x Lk)].
  - intros d' Hd'. rewrite Hnext, Hmax by exact Hd'. destruct (I d' Hd') as (I1 & I2).
    split; [|exact I2]. destruct (Z.eqb_spec d' d) as [->|Ne]; [lia|exact I1].
  - apply NoDup_insert; assumption.
  - intros k Hk. apply keys_insert in Hk. destruct Hk as [->|Hk].
    + split; [apply sid_nonneg; lia|]. intros _. unfold id.
      rewrite id_dir_sid, id_index_sid, Hnext, Z.eqb_refl by lia. lia.
    + destruct (K k Hk) as (K2 & K3). split; [exact K2|]. intros Hi. specialize (K3 Hi).
      assert (Hdk : 0 <= id_dir k <= 1) by (unfold id_dir; lia).
      rewrite Hnext by exact Hdk. destruct (Z.eqb_spec (id_dir k) d) as [<-|Ne]; [lia|exact K3].
  - intros Hp. destruct (M Hp) as (M1 & M2 & M3 & M4). unfold early_facts. st_goal. rewrite O1.
    split; [|split; [exact M2|split; [|contradiction]]].
    + intros k v Lk Hr. rewrite lookup_insert in Lk by exact Ln.
      destruct (k =? id); [congruence|exact (M1 k v Lk Hr)].
    + intros P0. destruct (M3 P0) as (Q1 & Q2 & Q3).
      split; [rewrite <- Q1; exact (Hmax 0)|split; [rewrite <- Q2; exact (Hmax 1)|]].
      intros d' i Hd' Hi. rewrite lookup_insert by exact Ln.
      destruct (sid (side s) d' i =? id) eqn:E; [discriminate|]. apply (Q3 d' i Hd').
      rewrite Hnext in Hi by exact Hd'.
      destruct (Z.eqb_spec d' d) as [->|Ne]; [|exact Hi].
      assert (i <> n) by (intros ->; unfold id in E; lia). lia.
Qed.

Lemma open_inv s g d s' r : Inv s g -> g.(g_phase) <> 1 -> do_open d s = Some (s', r) -> Inv s' g.
Proof.
  intros I Hp1 O. unfold do_open in O. pose proof (norm_dir_range d) as Hd.
  destruct (get_max (norm_dir d) s <=? get_next (norm_dir d) s) eqn:E.
  - injection O as <- _. eapply Inv_ext; [|exact I]. symmetry. apply set_blocked_core.
  - destruct (lookup _ (send s)) eqn:L; [discriminate|]. injection O as <- _.
    eapply Inv_ext; [|apply (inv_open s g (norm_dir d) I Hp1 Hd); [lia|exact L]]. view_eq.
Qed.

Lemma inv_ghost_msd s g id v :
  Inv s g -> g.(g_phase) = 2 ->
  Inv s (mkGhost 2 g.(g_par) g.(g_md) ((id, v) :: g.(g_msd)) g.(g_ms) g.(g_closed)).
Proof.
  intros [A B C D E1 F G H I J K1 L M] Hp.
  constructor; gcbn; auto; try lia.
  intros k x Lk. destruct (H k x Lk) as (H1 & H2). split; [exact H1|].
  unfold delivered_stream_limit in *. gcbn. rewrite kmax_cons. destruct (id =? k); lia.
Qed.

Lemma inv_ghost_ms_noop s g d c :
  Inv s g -> g.(g_phase) = 2 -> 0 <= d <= 1 -> c <= get_max d s ->
  Inv s (mkGhost 2 g.(g_par) g.(g_md) g.(g_msd) ((d, c) :: g.(g_ms)) g.(g_closed)).
Proof.
  intros [A B C D E1 F G H I J K1 L M] Hp Hd Hc.
  constructor; gcbn; auto; try lia.
  intros d0 Hd0. destruct (I d0 Hd0) as (I1 & I2). split; [exact I1|].
  rewrite kmax_cons. destruct (Z.eqb_spec d d0) as [<-|Ne]; [lia|exact I2].
Qed.

Lemma inv_max_streams s g d c :
  Inv s g -> g.(g_phase) = 2 -> 0 <= d <= 1 -> get_max d s < c ->
  Inv (set_max d c s) (mkGhost 2 g.(g_par) g.(g_md) g.(g_msd) ((d, c) :: g.(g_ms)) g.(g_closed)).
Proof.
  intros [A B C D E1 F G H I J K1 L M] Hp Hd Hc.
  pose proof (set_max_others d c s) as Ho. cbn [core fst] in Ho.
  injection Ho as O1 O2 O3 O4 O5 O6 O7 O8.
  constructor; gcbn; rewrite ?O1, ?O2, ?O3, ?O4, ?O5, ?O6, ?O7, ?O8; try assumption; try lia.
  - intros d' Hd'. rewrite get_next_set_max, get_max_set_max, kmax_cons, (Z.eqb_sym d d') by assumption.
    destruct (I d' Hd') as (I1 & I2). destruct (Z.eqb_spec d' d) as [->|Ne]; [lia|auto].
  - intros k Hk. rewrite get_next_set_max. exact (K1 k Hk).
Qed.

Lemma sp_side p s : side (do_set_params p s) = side s. Proof. reflexivity. Qed.
Lemma sp_max_data p s : max_data (do_set_params p s) = Z.max (max_data s) (p_max_data p). Proof. reflexivity. Qed.
Lemma sp_data_sent p s : data_sent (do_set_params p s) = data_sent s. Proof. reflexivity. Qed.
Lemma sp_unacked p s : unacked_data (do_set_params p s) = unacked_data s. Proof. reflexivity. Qed.
Lemma sp_send p s : send (do_set_params p s) = set_remote_limits (side s) (p_sd_bidi_local p) (send s). Proof. reflexivity. Qed.
Lemma sp_sd_uni p s : sd_uni (do_set_params p s) = p_sd_uni p. Proof. reflexivity. Qed.
Lemma sp_sd_bl p s : sd_bidi_local (do_set_params p s) = p_sd_bidi_local p. Proof. reflexivity. Qed.
Lemma sp_sd_br p s : sd_bidi_remote (do_set_params p s) = p_sd_bidi_remote p. Proof. reflexivity. Qed.
Lemma sp_next_bi p s : next_bi (do_set_params p s) = next_bi s. Proof. reflexivity. Qed.
Lemma sp_next_uni p s : next_uni (do_set_params p s) = next_uni s. Proof. reflexivity. Qed.
Lemma sp_max_bi p s : max_bi (do_set_params p s) = p_streams_bidi p. Proof. reflexivity. Qed.
Lemma sp_max_uni p s : max_uni (do_set_params p s) = p_streams_uni p. Proof. reflexivity. Qed.
Global Hint Rewrite sp_side sp_max_data sp_data_sent sp_unacked sp_send sp_sd_uni sp_sd_bl sp_sd_br
  sp_next_bi sp_next_uni sp_max_bi sp_max_uni : sp.

Lemma set_remote_limits_id sd lim m :
  NoDup (keys m) ->
  (forall id v, lookup id m = Some v -> id_init id <> sd -> v = None) ->
  set_remote_limits sd lim m = m.
Proof.
  intros N H. apply set_remote_limits_same. intros k x Hin.
  destruct (Z.eq_dec (id_init k) sd) as [E|E]; [exact E|].
  discriminate (H _ _ (In_lookup _ _ _ N Hin) E).
Qed.

(** 0-RTT accepted: parameters that are at least the remembered ones. *)
Lemma inv_params_accept s g p :
  Inv s g -> g.(g_phase) = 0 -> params_valid p = true -> pge_params p g.(g_par) = true ->
  Inv (do_set_params p s)
      (mkGhost 2 p (p.(p_max_data) :: g.(g_md)) g.(g_msd)
               ((0, p.(p_streams_bidi)) :: (1, p.(p_streams_uni)) :: g.(g_ms)) g.(g_closed)).
Proof.
  intros I Hp Hv Hge.
  destruct I as [A B C D E1 F G H I J K1 L M].
  destruct (M ltac:(lia)) as (M1 & M2 & M3 & _). destruct (M3 Hp) as (Q1 & Q2 & Q3).
  pose proof (set_remote_limits_id (side s) (p_sd_bidi_local p) _ J M1) as Hrl.
  unfold pge_params in Hge. unfold params_valid, is_varint in Hv, C.
  constructor; gcbn; unfold get_next, get_max, delivered_stream_limit in *;
    autorewrite with sp; rewrite ?Hrl; auto; try lia.
  - rewrite lmax_cons. lia.
  - intros k x Lk. destruct (H k x Lk) as (X1 & X2). split; [exact X1|].
    rewrite M2 in *. unfold kmax, lmax in *. cbn [filter map fold_right] in *.
    unfold par_for in *. gcbn. destruct (id_dir k =? 1), (id_init k =? side s); lia.
  - intros d Hd. generalize (I d Hd). rewrite !kmax_cons.
    destruct (d =? 0) eqn:Ed, (0 =? d) eqn:Ed0, (1 =? d) eqn:Ed1; lia.
Qed.

(** After a rejection: any parameters. *)
Lemma inv_params_fresh s g p :
  Inv s g -> g.(g_phase) = 1 -> params_valid p = true ->
  Inv (do_set_params p s)
      (mkGhost 2 p (p.(p_max_data) :: g.(g_md)) g.(g_msd)
               [(0, p.(p_streams_bidi)); (1, p.(p_streams_uni))] g.(g_closed)).
Proof.
  intros I Hp Hv.
  destruct I as [A B C D E1 F G H I J K1 L M].
  destruct (M ltac:(lia)) as (M1 & M2 & _ & M4).
  destruct (M4 Hp) as (N1 & N2 & N3 & N4 & N5 & N6 & N7).
  pose proof (set_remote_limits_id (side s) (p_sd_bidi_local p) _ J M1) as Hrl.
  unfold params_valid, is_varint in Hv.
  constructor; gcbn; unfold get_next, get_max, delivered_stream_limit in *;
    autorewrite with sp; rewrite ?Hrl; auto; try lia.
  - rewrite lmax_cons, N6. unfold lmax. cbn [fold_right]. lia.
  - intros k x Lk. exfalso.
    destruct (K1 k (lookup_in_keys _ _ _ Lk)) as (K2 & K3).
    destruct (Z.eq_dec (id_init k) (side s)) as [El|El].
    + specialize (K3 El). unfold id_index in K3. destruct (id_dir k =? 0); lia.
    + specialize (M1 _ _ Lk El). discriminate.
  - intros d Hd. rewrite kmax_two by lia. destruct (d =? 0); lia.
Qed.

Definition is_loc (sd d : Z) (n : nat) (k : Z) : Prop :=
  exists i, 0 <= i < Z.of_nat n /\ k = sid sd d i.

Lemma remove_locals_spec sd d n : forall m m',
  remove_locals sd d n m = Some m' -> NoDup (keys m) ->
  NoDup (keys m')
  /\ (forall k, is_loc sd d n k -> lookup k m' = None)
  /\ (forall k, ~ is_loc sd d n k -> lookup k m' = lookup k m).
Proof.
  induction n as [|n IH]; intros m m' R N; cbn [remove_locals] in R.
  - injection R as <-. split; [exact N|]. split; [|auto].
    intros k (i & Hi & _). lia.
  - destruct (remove_locals sd d n m) as [m1|] eqn:R1; [|discriminate].
    destruct (IH m m1 R1 N) as (N1 & A1 & B1).
    destruct (lookup (sid sd d (Z.of_nat n)) m1) eqn:L1; [|discriminate].
    injection R as <-. split; [apply NoDup_remove; exact N1|]. split.
    + intros k (i & Hi & Ek). subst k. destruct (Z.eq_dec i (Z.of_nat n)) as [Ei|Hn]; [subst i|].
      * apply lookup_remove_eq. exact N1.
      * rewrite lookup_remove_neq by (unfold sid; lia). apply A1. exists i. split; [lia|reflexivity].
    + intros k Hk. rewrite lookup_remove_neq.
      * apply B1. intros (i & Hi & E). apply Hk. exists i. split; [lia|exact E].
      * intros E. apply Hk. exists (Z.of_nat n). split; [lia|exact E].
Qed.

Lemma remove_locals_some sd d n : forall m,
  (forall i, 0 <= i < Z.of_nat n -> lookup (sid sd d i) m <> None) -> NoDup (keys m) ->
  exists m', remove_locals sd d n m = Some m'.
Proof.
  induction n as [|n IH]; intros m H N; cbn [remove_locals]; [eexists; reflexivity|].
  destruct (IH m) as (m1 & R1); [intros i Hi; apply H; lia|exact N|].
  rewrite R1. destruct (remove_locals_spec _ _ _ _ _ R1 N) as (_ & _ & B1).
  rewrite B1.
  - destruct (lookup (sid sd d (Z.of_nat n)) m) eqn:L; [eexists; reflexivity|].
    exfalso. apply (H (Z.of_nat n)); [lia|exact L].
  - intros (i & Hi & E). unfold sid in E. lia.
Qed.

Lemma local_is_loc s g k :
  Inv s g -> In k (keys s.(send)) -> id_init k = s.(side) ->
  is_loc s.(side) 0 (Z.to_nat s.(next_bi)) k \/ is_loc s.(side) 1 (Z.to_nat s.(next_uni)) k.
Proof.
  intros I Hin Hl. destruct (i_keys _ _ I k Hin) as (K2 & K3). specialize (K3 Hl).
  pose proof (sid_decompose k K2) as Hd. rewrite Hl in Hd.
  assert (0 <= id_index k) by (unfold id_index; lia).
  assert (id_dir k = 0 \/ id_dir k = 1) as [E|E] by (unfold id_dir; lia); rewrite E in *.
  - left. exists (id_index k). change (get_next 0 s) with (next_bi s) in K3. split; [lia|exact Hd].
  - right. exists (id_index k). change (get_next 1 s) with (next_uni s) in K3. split; [lia|exact Hd].
Qed.

Lemma reject_some s g :
  Inv s g -> g.(g_phase) = 0 -> exists s', do_reject s = Some s'.
Proof.
  intros I Hp. destruct (i_early _ _ I ltac:(lia)) as (_ & _ & M3 & _).
  destruct (M3 Hp) as (_ & _ & Q3).
  destruct (i_cnt _ _ I 0 ltac:(lia)) as (N0 & _). destruct (i_cnt _ _ I 1 ltac:(lia)) as (N1 & _).
  change (get_next 0 s) with (next_bi s) in N0. change (get_next 1 s) with (next_uni s) in N1.
  unfold do_reject, reject_with.
  destruct (remove_locals_some (side s) 0 (Z.to_nat (next_bi s)) (send s)) as (m1 & R1).
  { intros i Hi. apply (Q3 0 i); [lia|]. change (0 <= i < next_bi s). lia. }
  { exact (i_nodup _ _ I). }
  rewrite R1. destruct (remove_locals_spec _ _ _ _ _ R1 (i_nodup _ _ I)) as (Nd1 & A1 & B1).
  destruct (remove_locals_some (side s) 1 (Z.to_nat (next_uni s)) m1) as (m2 & R2).
  { intros i Hi. rewrite B1.
    - apply (Q3 1 i); [lia|]. change (0 <= i < next_uni s). lia.
    - intros (j & Hj & E). unfold sid in E. lia. }
  { exact Nd1. }
  rewrite R2. eexists. reflexivity.
Qed.

Lemma reject_spec s g s' :
  Inv s g -> g.(g_phase) = 0 -> do_reject s = Some s' ->
  NoDup (keys s'.(send))
  /\ (forall k v, lookup k s'.(send) = Some v ->
        lookup k s.(send) = Some v /\ id_init k <> s.(side) /\ v = None)
  /\ log s' = map (fun _ => None) s.(log)
  /\ side s' = side s /\ next_reported_bi s' = next_reported_bi s /\ send_streams s' = 0.
Proof.
  intros I Hp R. unfold do_reject, reject_with in R.
  destruct (remove_locals (side s) 0 (Z.to_nat (next_bi s)) (send s)) as [m1|] eqn:R1; [|discriminate].
  destruct (remove_locals (side s) 1 (Z.to_nat (next_uni s)) m1) as [m2|] eqn:R2; [|discriminate].
  injection R as <-. st_goal.
  destruct (remove_locals_spec _ _ _ _ _ R1 (i_nodup _ _ I)) as (Nd1 & A1 & B1).
  destruct (remove_locals_spec _ _ _ _ _ R2 Nd1) as (Nd2 & A2 & B2).
  split; [exact Nd2|]. split; [|auto]. intros k v L.
  assert (~ is_loc (side s) 1 (Z.to_nat (next_uni s)) k) as Hn2
    by (intros Hl; rewrite (A2 k Hl) in L; discriminate).
  rewrite (B2 k Hn2) in L.
  assert (~ is_loc (side s) 0 (Z.to_nat (next_bi s)) k) as Hn1
    by (intros Hl; rewrite (A1 k Hl) in L; discriminate).
  rewrite (B1 k Hn1) in L.
  assert (El : id_init k <> side s)
    by (intros El; destruct (local_is_loc s g k I (lookup_in_keys _ _ _ L) El); contradiction).
  destruct (i_early _ _ I ltac:(lia)) as (M1 & _).
  split; [exact L|]. split; [exact El|exact (M1 _ _ L El)].
Qed.

Lemma reject_inv s g s' :
  Inv s g -> g.(g_phase) = 0 -> do_reject s = Some s' ->
  Inv s' (mkGhost 1 g.(g_par) [] [] g.(g_ms) 0).
Proof.
  intros I Hp R. destruct (reject_spec s g s' I Hp R) as (Nd2 & Hm2 & _).
  unfold do_reject, reject_with, CODE_FIXED in R.
  destruct (remove_locals _ 0 _ _) as [m1|]; [|discriminate].
  destruct (remove_locals _ 1 _ m1) as [m2|]; [|discriminate].
  injection R as <-. st_in Nd2. st_in Hm2.
  destruct I as [A B C D E1 F G H I J K1 L M].
  constructor; gcbn; unfold get_next, get_max, early_facts in *; st; auto; try lia.
  - rewrite sum_off_none; [reflexivity|]. intros k v Hin.
    destruct (Hm2 k v (In_lookup _ _ _ Nd2 Hin)) as (_ & _ & E). exact E.
  - intros k x Lk. destruct (Hm2 _ _ Lk) as (_ & _ & E). discriminate.
  - intros d Hd. destruct (I d Hd) as (I1 & I2). destruct (d =? 0); lia.
  - intros k Hk. destruct (lookup k m2) as [v|] eqn:Lk; [|apply in_keys_lookup in Hk; contradiction].
    destruct (Hm2 _ _ Lk) as (L0 & El & _).
    destruct (K1 k (lookup_in_keys _ _ _ L0)) as (K2 & _). split; [exact K2|]. intros E. contradiction.
  - intros _. split; [|split; [reflexivity|split; [intros Hq; discriminate|intros _; repeat split; lia]]].
    intros k v Lk _. destruct (Hm2 _ _ Lk) as (_ & _ & E). exact E.
Qed.

Lemma poll_transmit_credit m x a b enc x1 :
  poll_transmit m x = (a, b, enc, x1) ->
  s_offset x1 = s_offset x /\ s_max_data x1 = s_max_data x /\ s_state x1 = s_state x.
Proof.
  unfold poll_transmit. destruct (s_retx x) as [|[rs re] t]; intros E; injection E as _ _ _ <-;
    st_goal; auto.
Qed.

Lemma tx_loop_sc fuel : forall maxb buf s acc s' buf' fs okf,
  tx_loop fuel maxb buf s acc = (s', buf', fs, okf) -> sc s s'.
Proof.
  induction fuel as [|fuel IH]; intros maxb buf s acc s' buf' fs okf T; cbn [tx_loop] in T.
  - injection T as <- _ _ _. apply sc_refl.
  - destruct (buf + 25 <? maxb); [|injection T as <- _ _ _; apply sc_refl].
    destruct (pendq s) as [|id q] eqn:Pq; [injection T as <- _ _ _; apply sc_refl|].
    apply (sc_trans _ (set_pendq q s)); [sc_view_eq|].
    destruct (lookup id (send (set_pendq q s))) as [[x|]|] eqn:L; try (eapply IH; exact T).
    destruct (s_state x =? 3); [eapply IH; exact T|].
    destruct (poll_transmit (maxb - buf - 1 - vsize id) x) as [[[a b] enc] x1] eqn:P.
    destruct (poll_transmit_credit _ _ _ _ _ _ P) as (Po & Pm & _).
    destruct ((b =? s_offset x1) && ((s_state x1 =? 1) || (s_state x1 =? 2)));
      (eapply sc_trans; [|eapply IH; exact T]); (eapply sc_put; [view_eq|exact L|st_goal; congruence..]).
Qed.

(** For any transitive relation that contains the two writes of the loop. *)
Lemma cb_loop_pres (Q : State -> State -> Prop) :
  (forall a b c, Q a b -> Q b c -> Q a c) -> (forall t s, Q s (set_conn_blocked t s)) ->
  (forall id x s, lookup id (send s) = Some (Some x) -> Q s (put id (set_s_cb false x) s)) ->
  forall st s, Q s (fst (cb_loop st s)).
Proof.
  intros Qt Qc Qp. induction st as [|id t IH]; intros s; cbn [cb_loop]; [apply Qc|].
  destruct (lookup id (send s)) as [[x|]|] eqn:Lk; try apply IH.
  apply (Qt _ _ _ (Qp id x s Lk)).
  destruct ((s_state x =? 0) && (s_offset x <? s_max_data x)); [apply Qc|apply IH].
Qed.

Lemma cb_loop_sc st : forall s, sc s (fst (cb_loop st s)).
Proof.
  apply (cb_loop_pres sc sc_trans).
  - intros t s. sc_view_eq.
  - intros id x s L. eapply sc_put; [reflexivity|exact L|reflexivity..].
Qed.

Lemma retry_stream_sc fixed id s s' : retry_stream fixed id s = Some s' -> sc s s'.
Proof.
  unfold retry_stream. destruct (lookup id (send s)) as [[x|]|] eqn:L;
    try (intros E; injection E as <-; apply sc_refl).
  destruct ((s_ulen x =? 0) && negb (s_fin_pending x)); cbn [andb negb];
    [destruct (negb (fixed && ((s_state x =? 1) || (s_state x =? 2)))); cbn [andb];
       [intros E; injection E as <-; apply sc_refl|]|].
  all: st_goal; destruct (s_offset x =? s_ulen x); [|discriminate]; intros E; injection E as <-.
  all: eapply sc_put; [view_eq|exact L|reflexivity..].
Qed.

Lemma retry_dir_sc fixed d n : forall s s', retry_dir fixed d n s = Some s' -> sc s s'.
Proof.
  induction n as [|n IH]; intros s s' R; cbn [retry_dir] in R.
  - injection R as <-. apply sc_refl.
  - destruct (retry_dir fixed d n s) as [s1|] eqn:R1; [|discriminate].
    eapply sc_trans; [apply IH; exact R1|eapply retry_stream_sc; exact R].
Qed.

Lemma retry_cases s s' :
  do_retry s = Some s' ->
  exists s1 s2, retry_dir RETRY_FIXED 0 (Z.to_nat (next_bi s)) s = Some s1
    /\ retry_dir RETRY_FIXED 1 (Z.to_nat (next_uni s1)) s1 = Some s2
    /\ s' = set_log (map (fun _ => None) (log s2)) s2.
Proof.
  unfold do_retry, retry_with.
  destruct (retry_dir RETRY_FIXED 0 (Z.to_nat (next_bi s)) s) as [s1|]; [|discriminate].
  destruct (retry_dir RETRY_FIXED 1 (Z.to_nat (next_uni s1)) s1) as [s2|] eqn:R2; [|discriminate].
  intros E; injection E as <-. exists s1, s2. auto.
Qed.

Lemma retry_sc s s' : do_retry s = Some s' -> sc s s'.
Proof.
  intros R. destruct (retry_cases _ _ R) as (s1 & s2 & R1 & R2 & ->).
  eapply sc_trans; [eapply retry_dir_sc; exact R1|].
  eapply sc_trans; [eapply retry_dir_sc; exact R2|]. sc_view_eq.
Qed.

Lemma finish_inv s g id s' r :
  Inv s g -> (g.(g_phase) <> 2 -> id_init id = s.(side)) -> do_finish id s = Some (s', r) -> Inv s' g.
Proof.
  intros I Hloc F. unfold do_finish in F.
  destruct (touch id s) as [[x s1]|] eqn:T; [|injection F as <- _; exact I].
  destruct (touch_inv _ _ _ _ _ I T Hloc) as (I1 & L1 & _).
  destruct (s_stop x); [injection F as <- _; exact I1|].
  destruct (s_state x =? 0); [|injection F as <- _; exact I1].
  injection F as <- _. eapply sc_inv; [exact I1|]. eapply sc_put; [view_eq|exact L1|reflexivity..].
Qed.

Lemma reset_inv s g id s' r :
  Inv s g -> g.(g_phase) <> 1 -> (g.(g_phase) <> 2 -> id_init id = s.(side)) ->
  do_reset id s = Some (s', r) -> Inv s' g.
Proof.
  intros I Hp1 Hloc F. unfold do_reset in F.
  destruct (touch id s) as [[x s1]|] eqn:T; [|injection F as <- _; exact I].
  destruct (touch_inv _ _ _ _ _ I T Hloc) as (I1 & L1 & _).
  destruct (s_state x =? 3); [injection F as <- _; exact I1|].
  destruct (sb_unacked x) as [u|]; [|discriminate].
  destruct (unacked_data s1 <? u) eqn:E; [discriminate|].
  injection F as <- _.
  eapply sc_inv; [apply (inv_unacked s1 g (unacked_data s1 - u) I1); [lia|exact Hp1]|].
  eapply sc_put; [reflexivity|exact L1|reflexivity..].
Qed.

Lemma lost_inv s g f s' r : Inv s g -> do_lost f s = Some (s', r) -> Inv s' g.
Proof.
  intros I F. unfold do_lost in F. destruct f as [[[id a] b] fin].
  destruct (lookup id (send s)) as [[x|]|] eqn:L; try (injection F as <- _; exact I).
  destruct (s_unsent x <? b); [discriminate|]. injection F as <- _.
  eapply sc_inv; [exact I|]. eapply sc_put; [view_eq|exact L|reflexivity..].
Qed.

Lemma sb_ack_credit a b x x' : sb_ack a b x = Some x' ->
  s_offset x' = s_offset x /\ s_max_data x' = s_max_data x /\ s_state x' = s_state x.
Proof.
  unfold sb_ack. destruct (pop_acked _ _ _) as [[u l]|]; [|discriminate].
  intros E; injection E as <-. st_goal. auto.
Qed.

Lemma stream_freed_core s s' : stream_freed s = Some s' -> core s' = core s.
Proof.
  unfold stream_freed. destruct (send_streams s <? 1); [discriminate|].
  intros E; injection E as <-. view_eq.
Qed.

(** A stream is removed from the map: its final offset moves to [g_closed]. *)
Lemma inv_freed s g id x s2 s' :
  Inv s g -> lookup id s.(send) = Some (Some x) ->
  stream_freed (set_send (remove id s.(send)) s) = Some s2 -> core s' = core s2 ->
  Inv s' (mkGhost 2 g.(g_par) g.(g_md) g.(g_msd) g.(g_ms) (g.(g_closed) + removed_off id s s')).
Proof.
  intros I L SF Hc. rewrite (stream_freed_core _ _ SF) in Hc.
  assert (Hs : send s' = remove id (send s)) by (unfold core in Hc; injection Hc; auto).
  unfold removed_off. rewrite L, Hs, lookup_remove_eq by exact (i_nodup _ _ I).
  eapply Inv_ext; [symmetry; exact Hc|exact (inv_remove s g id x I L)].
Qed.

Lemma inv_kept s g id t :
  Inv t g -> (lookup id s.(send) <> None -> lookup id t.(send) <> None) ->
  Inv t (mkGhost 2 g.(g_par) g.(g_md) g.(g_msd) g.(g_ms) (g.(g_closed) + removed_off id s t)).
Proof. intros I Hl. rewrite (removed_off_kept id s t Hl), Z.add_0_r. apply inv_phase2. exact I. Qed.

Lemma ack_inv s g id a b fin s' r :
  Inv s g -> g.(g_phase) <> 1 -> do_ack (id, a, b, fin) s = Some (s', r) ->
  Inv s' (mkGhost 2 g.(g_par) g.(g_md) g.(g_msd) g.(g_ms) (g.(g_closed) + removed_off id s s')).
Proof.
  intros I Hp1 F. unfold do_ack in F.
  destruct (lookup id (send s)) as [[x|]|] eqn:L; try (injection F as <- _; apply inv_kept; auto).
  destruct (s_state x =? 3); [injection F as <- _; apply inv_kept; auto|].
  destruct (b <? a); [discriminate|]. destruct (unacked_data s <? b - a) eqn:E; [discriminate|].
  destruct (sb_ack a b x) as [x1|] eqn:SA; [|discriminate].
  destruct (sb_ack_credit _ _ _ _ SA) as (Ao & Am & As).
  set (s0 := set_unacked_data (unacked_data s - (b - a)) s) in *.
  assert (I0 : Inv s0 g) by (apply inv_unacked; [exact I|lia|exact Hp1]).
  assert (Hput : forall y, s_offset y = s_offset x -> s_max_data y = s_max_data x ->
            Inv (put id y s0) (mkGhost 2 (g_par g) (g_md g) (g_msd g) (g_ms g)
                                 (g_closed g + removed_off id s (put id y s0)))).
  { intros y Ho Hm. apply inv_kept.
    - eapply sc_inv; [exact I0|]. eapply sc_put; [reflexivity|exact L|exact Ho|exact Hm].
    - intros _. rewrite lookup_put, Z.eqb_refl. unfold s0. st_goal. rewrite L. discriminate. }
  destruct ((s_state x1 =? 1) || (s_state x1 =? 2)).
  - destruct (_ && _).
    + destruct (stream_freed _) as [s2|] eqn:SF; [|discriminate]. injection F as <- _.
      apply (inv_freed s0 g id x s2 _ I0 L SF). view_eq.
    + injection F as <- _. apply Hput; st_goal; congruence.
  - injection F as <- _. apply Hput; congruence.
Qed.

Lemma reset_acked_inv s g id s' r :
  Inv s g -> do_reset_acked id s = Some (s', r) ->
  Inv s' (mkGhost 2 g.(g_par) g.(g_md) g.(g_msd) g.(g_ms) (g.(g_closed) + removed_off id s s')).
Proof.
  intros I F. unfold do_reset_acked in F.
  destruct (lookup id (send s)) as [[x|]|] eqn:L; try (injection F as <- _; apply inv_kept; auto).
  destruct (s_state x =? 3); [|injection F as <- _; apply inv_kept; auto].
  destruct (stream_freed _) as [s2|] eqn:SF; [|discriminate]. injection F as <- _.
  exact (inv_freed s g id x s2 s2 I L SF eq_refl).
Qed.

Lemma on_stream_frame_core id s : core (on_stream_frame id s) = core s.
Proof. unfold on_stream_frame. view_eq. Qed.

Lemma stop_sending_inv s g id code :
  Inv s g -> g.(g_phase) = 2 -> Inv (do_stop_sending id code s) g.
Proof.
  intros I Hp. unfold do_stop_sending.
  destruct (touch id s) as [[x s1]|] eqn:T; [|exact I].
  destruct (touch_inv _ _ _ _ _ I T ltac:(lia)) as (I1 & L1 & _).
  destruct (s_stop x); [exact I1|].
  eapply sc_inv; [exact I1|].
  eapply sc_put; [rewrite on_stream_frame_core; view_eq|exact L1|reflexivity..].
Qed.

(** Decides the test of [arg r 0] in the ghost once [F] gives the result code. *)
Ltac result_code F := injection F as <- <-; cbn [arg nth]; red_eqb; cbv iota.

Lemma max_stream_data_inv s g id v s' r :
  Inv s g -> g.(g_phase) = 2 -> 0 <= v -> do_max_stream_data id v s = Some (s', r) ->
  Inv s' (mkGhost 2 g.(g_par) g.(g_md)
            (if arg r 0 =? 0 then (id, v) :: g.(g_msd) else g.(g_msd)) g.(g_ms) g.(g_closed)).
Proof.
  intros I Hp Hv F. unfold do_max_stream_data in F.
  pose proof (inv_phase2 _ _ I) as I2.
  destruct (negb (id_init id =? side s) && (id_dir id =? 1)).
  { result_code F. exact I2. }
  rewrite (write_limit_some _ _ I) in F.
  destruct (touch id s) as [[x s1]|] eqn:T.
  2:{ destruct ((id_init id =? side s) && (get_next (id_dir id) s <=? id_index id)).
      - result_code F. exact I2.
      - result_code F.
        eapply Inv_ext; [symmetry; apply on_stream_frame_core|].
        apply inv_ghost_msd; assumption. }
  destruct (touch_inv _ _ _ _ _ I T ltac:(lia)) as (I1 & L1 & _).
  result_code F.
  eapply Inv_ext; [symmetry; apply on_stream_frame_core|].
  pose proof (inv_ghost_msd s1 g id v I1 Hp) as Ig.
  destruct ((s_max_data x <? v) && (s_state x =? 0)) eqn:Raise; [|exact Ig].
  destruct (i_str _ _ I1 id x L1) as (X1 & X2).
  assert (Hraise : forall y s2, core s2 = core (put id y s1) ->
            s_offset y = s_offset x -> s_max_data y = v ->
            Inv s2 (mkGhost 2 (g_par g) (g_md g) ((id, v) :: g_msd g) (g_ms g) (g_closed g))).
  { intros y s2 Hc Ho Hm. pose proof (i_ds _ _ I1). eapply Inv_ext; [symmetry; exact Hc|].
    apply (inv_update_entry s1 _ _ id (Some x) y Ig L1); try reflexivity;
      unfold put; st_goal; cbn [offo]; try lia.
    - unfold delivered_stream_limit. gcbn. rewrite kmax_cons, Z.eqb_refl. lia.
    - gcbn. lia. }
  destruct (s_offset x =? s_max_data x); [destruct (0 <? _); [|st_goal; destruct (s_cb x)]|];
    (eapply Hraise; [view_eq|st_goal; reflexivity..]).
Qed.

Lemma max_streams_inv s g msc d c s' r :
  Inv s g -> g.(g_phase) = 2 -> do_max_streams msc d c s = Some (s', r) ->
  Inv s' (mkGhost 2 g.(g_par) g.(g_md) g.(g_msd)
            (if arg r 0 =? 0 then (norm_dir d, c) :: g.(g_ms) else g.(g_ms)) g.(g_closed)).
Proof.
  intros I Hp F. unfold do_max_streams in F.
  pose proof (inv_phase2 _ _ I) as I2.
  pose proof (norm_dir_range d) as Hd.
  destruct (msc <? c); [result_code F; exact I2|].
  destruct (get_max (norm_dir d) s <? c) eqn:E; result_code F.
  - eapply Inv_ext; [|apply (inv_max_streams s g (norm_dir d) c I Hp Hd); lia].
    rewrite <- (set_blocked_core (norm_dir d) false). reflexivity.
  - apply inv_ghost_ms_noop; auto. lia.
Qed.

Lemma poll_inv s g s' r : Inv s g -> do_poll s = Some (s', r) -> Inv s' g.
Proof.
  intros I F. unfold do_poll, pop_event in F.
  destruct (opened_bi s); [injection F as <- _; eapply Inv_ext; [|exact I]; view_eq|].
  rewrite (write_limit_some _ _ I) in F.
  destruct (0 <? _).
  - pose proof (cb_loop_sc (conn_blocked s) s) as S1.
    destruct (cb_loop (conn_blocked s) s) as [s1 [id|]]; cbn [fst] in S1.
    + injection F as <- _. eapply sc_inv; eassumption.
    + destruct (events s1); injection F as <- _.
      * eapply sc_inv; eassumption.
      * eapply sc_inv; [exact I|]. eapply sc_trans; [exact S1|sc_view_eq].
  - destruct (events s); injection F as <- _; [exact I|]. eapply Inv_ext; [|exact I]. view_eq.
Qed.

Lemma transmit_inv s g maxb s' r : Inv s g -> do_transmit maxb s = Some (s', r) -> Inv s' g.
Proof.
  intros I F. unfold do_transmit in F.
  destruct (tx_loop _ maxb 0 s []) as [[[s1 buf] fs] okf] eqn:T.
  pose proof (tx_loop_sc _ _ _ _ _ _ _ _ _ T) as S1.
  injection F as <- _.
  eapply sc_inv; [exact I|]. eapply sc_trans; [exact S1|sc_view_eq].
Qed.

Lemma accept_inv s g d s' r : Inv s g -> do_accept d s = Some (s', r) -> Inv s' g.
Proof.
  intros I F. eapply Inv_ext; [|exact I]. unfold do_accept in F.
  destruct (norm_dir d =? 0); [destruct (_ =? _)|]; injection F as <- _; reflexivity.
Qed.

Lemma retry_inv s g s' : Inv s g -> do_retry s = Some s' -> Inv s' g.
Proof. intros I R. eapply sc_inv; [exact I|apply retry_sc; exact R]. Qed.

Lemma write_exact s id n x limit :
  write_limit s = Some limit -> lookup id s.(send) = Some (Some x) ->
  x.(s_state) = 0 -> x.(s_stop) = None -> x.(s_offset) <= x.(s_max_data) -> 0 <= n ->
  exists s', do_write id n s =
             Some (s', if Z.min limit (x.(s_max_data) - x.(s_offset)) =? 0 then [1]
                       else [0; Z.min n (Z.min limit (x.(s_max_data) - x.(s_offset)))]).
Proof.
  intros WL L St Sp Ho Hn. unfold do_write, touch. rewrite WL, L.
  assert (Hl : 0 <= limit) by (destruct (write_limit_cases _ _ WL) as (? & ->); lia).
  destruct (limit =? 0) eqn:El.
  { assert (Z.min limit (s_max_data x - s_offset x) =? 0 = true) as -> by lia.
    destruct (s_cb x); eexists; reflexivity. }
  rewrite St. change (0 =? 0) with true. cbn [negb]. rewrite Sp.
  destruct (s_max_data x <? s_offset x) eqn:E1; [lia|].
  destruct (s_max_data x - s_offset x =? 0) eqn:E2.
  { assert (Z.min limit (s_max_data x - s_offset x) =? 0 = true) as -> by lia. eexists; reflexivity. }
  assert (Z.min limit (s_max_data x - s_offset x) =? 0 = false) as -> by lia.
  eexists; reflexivity.
Qed.

Lemma open_none_iff s d :
  get_next (norm_dir d) s <= get_max (norm_dir d) s ->
  ((exists s', do_open d s = Some (s', [1])) <-> get_next (norm_dir d) s = get_max (norm_dir d) s).
Proof.
  intros Hle. unfold do_open. destruct (get_max (norm_dir d) s <=? get_next (norm_dir d) s) eqn:E.
  - split; [lia|]. intros _. eexists; reflexivity.
  - split; [|lia]. intros (s' & H).
    destruct (lookup _ _); [discriminate|]. unfold ok in H. injection H as _ H. discriminate.
Qed.

Lemma write_send_window s id n s' r :
  do_write id n s = Some (s', r) -> 0 <= n -> 0 <= s.(unacked_data) ->
  s'.(unacked_data) <= Z.max s.(unacked_data) s.(send_window)
  /\ s'.(send_window) = s.(send_window)
  /\ s'.(unacked_data) - s.(unacked_data) = s'.(data_sent) - s.(data_sent)
  /\ 0 <= s'.(unacked_data) - s.(unacked_data)
  /\ (forall w, r = [0; w] -> s'.(unacked_data) = s.(unacked_data) + w).
Proof.
  intros W Hn Hu.
  (* [touch] changes none of the three fields *)
  assert (Ht : forall x s1, touch id s = Some (x, s1) ->
            unacked_data s1 = unacked_data s /\ data_sent s1 = data_sent s
            /\ send_window s1 = send_window s).
  { intros x s1 T. destruct (touch_spec _ _ _ _ T) as [(_ & ->)|(_ & _ & ->)]; auto. }
  destruct (do_write_cases _ _ _ _ _ W) as [(limit & x & s1 & WL & T & _ & _ & Hb & -> & ->)|(Hr & E)].
  - destruct (Ht _ _ T) as (Eu & Ed & Ew). destruct (write_limit_cases _ _ WL) as (E0 & ->).
    destruct (is_pending x); unfold push_pending, put; st_goal; rewrite Eu, Ed, Ew;
      (repeat split; [lia..|]); intros w Ew'; injection Ew' as <-; reflexivity.
  - assert (Es : unacked_data s' = unacked_data s /\ data_sent s' = data_sent s
                 /\ send_window s' = send_window s).
    { destruct E as [->|(x & s1 & T & [->| ->])]; [auto|exact (Ht _ _ T)|].
      unfold put. st_goal. exact (Ht _ _ T). }
    destruct Es as (-> & -> & ->). repeat split; try lia. intros w Ew. destruct (Hr w Ew).
Qed.

Lemma stay_phase g b :
  g_phase (stay g b) = 2 \/ g_phase (stay g b) = 0 /\ g_phase g = 0 /\ b = true.
Proof. unfold stay. cbn [g_phase]. destruct (g_phase g =? 0) eqn:E, b; cbn [andb]; lia. Qed.

Lemma inv_ph s g b : Inv s g -> Inv s (stay g b).
Proof.
  intros I. unfold stay. destruct ((g_phase g =? 0) && b) eqn:E; [|apply inv_phase2; exact I].
  replace 0 with (g_phase g) by lia. rewrite ghost_eta. exact I.
Qed.

Lemma gstep_inv s g op :
  Inv s g -> Inv (fst (gstep (s, g) op)) (snd (gstep (s, g) op)).
Proof.
  intros I. pose proof (inv_phase2 _ _ I) as I2.
  (* an application call that leaves the phase early is on a local stream *)
  assert (Hloc : forall id, g_phase (stay g (id_local (side s) id)) <> 2 -> id_init id = side s).
  { intros id E. destruct (stay_phase g (id_local (side s) id)) as [E2|(_ & _ & El)]; [contradiction|].
    unfold id_local in El. lia. }
  apply gstep_cases.
  - exact I.
  - intros p P1 V. apply inv_params_fresh; assumption.
  - intros p P0 V Hge. apply inv_params_accept; assumption.
  - intros d s' r P1 O. apply inv_ph; eapply open_inv; eassumption.
  - intros id n s' r P1 _ Hn O.
    eapply write_inv; [apply inv_ph; exact I|exact O|exact Hn|apply Hloc].
  - intros id s' r P1 _ O. eapply finish_inv; [apply inv_ph; exact I|apply Hloc|exact O].
  - intros id s' r P1 _ O.
    eapply reset_inv; [apply inv_ph; exact I| |apply Hloc|exact O].
    destruct (stay_phase g (id_local (side s) id)); lia.
  - intros v P1 V. apply (max_data_inv s _ v I2 eq_refl). unfold is_varint in V. lia.
  - intros id v s' r P1 _ Hv O. exact (max_stream_data_inv s _ id v s' r I2 eq_refl Hv O).
  - intros d c s' r P1 _ O. exact (max_streams_inv s _ _ d c s' r I2 eq_refl O).
  - intros maxb s' r P1 O. apply inv_ph; eapply transmit_inv; eassumption.
  - intros k id a b fin l s' r P1 _ O.
    apply (ack_inv (set_log l s) g id a b fin s' r); [|exact P1|exact O].
    eapply Inv_ext; [|exact I]. reflexivity.
  - intros k f l s' r P1 _ O. apply inv_phase2. eapply lost_inv; [|exact O].
    eapply Inv_ext; [|exact I]. reflexivity.
  - intros _. exact I2.
  - intros w P1. apply inv_ph. eapply Inv_ext; [|exact I]. reflexivity.
  - intros s' P0 R. eapply reject_inv; eassumption.
  - intros s' r P1 O. apply inv_ph; eapply poll_inv; eassumption.
  - intros id code P1 _ _. apply stop_sending_inv; [exact I2|reflexivity].
  - intros id s' r P1 O. eapply reset_acked_inv; eassumption.
  - intros d s' r P1 O. apply inv_phase2. eapply accept_inv; eassumption.
  - intros o P1 _. apply inv_ph; exact I.
  - intros s' P0 _ R. apply inv_ph; eapply retry_inv; eassumption.
Qed.

Theorem grun_inv : forall i s g, Inv s g -> Inv (fst (grun i (s, g))) (snd (grun i (s, g))).
Proof.
  intros i s g I. apply (fold_left_pres gstep (fun sg => Inv (fst sg) (snd sg))); [|exact I].
  intros [s0 g0] op. apply gstep_inv.
Qed.

Theorem reachable_inv sd mrb sw p0 i s g :
  0 <= sd <= 1 -> params_valid p0 = true ->
  grun i (start sd mrb sw p0) = (s, g) -> Inv s g.
Proof.
  intros Hs Hv R. pose proof (grun_inv i _ _ (inv_start sd mrb sw p0 Hs Hv)) as H.
  unfold start in *. cbn [fst snd] in H. rewrite R in H. exact H.
Qed.
