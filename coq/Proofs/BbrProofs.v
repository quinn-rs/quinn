(** BBR: the window floor. As found ([fx = false]) the model REFUTES it (DESIGN §7 F7): an MTU
    increase during recovery leaves [recovery_window] at the old floor. With the repair
    ([fx = true]) it holds for all call histories and every oracle value of the float computations. *)
From QV Require Import Lib.Tac Lib.Chk Lib.Corr Proofs.ChkProofs Proofs.RunInduction Model.Bbr.
Open Scope Z_scope.

Definition inv (s : st) : Prop :=
  0 <= mtu s /\ min_cwnd s = 4 * mtu s /\ 2 * mtu s <= init_cwnd s /\ 2 * mtu s <= cwnd s /\
  (rec s <> 0 -> 2 * mtu s <= rwin s).

Lemma build_inv w m : 0 <= m -> 2 * m <= w -> inv (build w m).
Proof.
  intros Hm Hw. unfold inv, build. cbn [mtu min_cwnd init_cwnd cwnd rec rwin].
  repeat split; try lia.
Qed.

Lemma target_floor s raw : inv s -> 2 * mtu s <= target s raw.
Proof.
  intros (Hm & Hmin & Hinit & _). unfold target. destruct (raw =? 0); lia.
Qed.

Lemma window_floor s r : inv s -> 2 * mtu s <= window s r.
Proof.
  intros Hi. pose proof (target_floor s r Hi) as Ht. destruct Hi as (Hm & Hmin & Hinit & Hc & Hr).
  unfold window. destruct (mode s =? 3); [exact Ht|].
  destruct (negb (rec s =? 0) && negb (mode s =? 0)) eqn:E; [|exact Hc].
  assert (rec s <> 0) as Hne by lia. specialize (Hr Hne). lia.
Qed.

(** book-keeping only: the fields [inv] reads are copied, so [inv] holds by computation *)
Lemma on_sent_inv s now bytes pn :
  inv s -> match on_sent s now bytes pn with Some s' => inv s' | None => True end.
Proof.
  intros Hi. unfold on_sent, obind. destruct (cadd (total_sent s) bytes); [exact Hi|exact I].
Qed.

Lemma on_ack_inv s now bytes al rtt :
  inv s -> match on_ack s now bytes al rtt with Some s' => inv s' | None => True end.
Proof.
  intros Hi. unfold on_ack, obind. destruct (cadd (total_acked s) bytes); [|exact I].
  destruct (match prev_sent_time s with Some _ => _ | None => _ end); [|exact I].
  destruct (cadd (acked_bytes s) bytes); [exact Hi|exact I].
Qed.

Lemma on_congestion_event_inv s lost :
  inv s -> match on_congestion_event s lost with Some s' => inv s' | None => True end.
Proof.
  intros Hi. unfold on_congestion_event, obind. destruct (cadd (lost_bytes s) lost); [exact Hi|exact I].
Qed.

Lemma calc_cwnd_floor s p rg :
  match calc_cwnd s p rg with Some c => c = cwnd s \/ min_cwnd s <= c | None => True end.
Proof.
  unfold calc_cwnd, obind. destruct (p_mode p =? 3); [left; reflexivity|].
  destruct (cadd (target s rg) _); [|exact I].
  destruct (if p_full p then _ else _) as [c0|]; [|exact I].
  right. destruct (c0 <? min_cwnd s) eqn:E; lia.
Qed.

Lemma calc_rwin_floor s p infl :
  p_rec p <> 0 -> match calc_rwin s p infl with Some r => min_cwnd s <= r | None => True end.
Proof.
  intros Hne. unfold calc_rwin, obind. destruct (p_rec p =? 0) eqn:E0; [lia|].
  destruct (cadd infl (p_bytes_acked p)) as [fa|]; [|exact I].
  destruct (p_rwin p =? 0); [lia|].
  destruct (if p_rec p =? 2 then _ else _); [lia|exact I].
Qed.

Lemma on_end_acks_inv s now infl al la r075 r1 rg :
  inv s -> match on_end_acks s now infl al la r075 r1 rg with Some s' => inv s' | None => True end.
Proof.
  intros (Hm & Hmin & Hinit & Hc & Hr). unfold on_end_acks, obind.
  destruct (end_acks_pre s now infl al la r075 r1) as [p|]; [|exact I].
  pose proof (calc_cwnd_floor s p rg) as Hcw. destruct (calc_cwnd s p rg) as [c|]; [|exact I].
  pose proof (calc_rwin_floor s p infl) as Hrw. destruct (calc_rwin s p infl) as [r|]; [|exact I].
  unfold inv. cbn [mtu min_cwnd init_cwnd cwnd rec rwin]. repeat split; try lia.
Qed.

Lemma on_mtu_update_inv s m : 0 <= m -> inv (on_mtu_update true s m).
Proof.
  intro Hm. unfold inv, on_mtu_update. cbn [mtu min_cwnd init_cwnd cwnd rec rwin].
  repeat split; try lia.
Qed.

Lemma step_inv s op r075 r1 rg :
  wf_op op -> inv s -> match step true s op r075 r1 rg with Some s' => inv s' | None => True end.
Proof.
  intros Hwf Hi. unfold step. destruct op as [|c a]; [exact Hi|]. apply wf_tail in Hwf.
  destruct (c =? 1); [apply on_sent_inv, Hi|].
  destruct (c =? 2); [apply on_ack_inv, Hi|].
  destruct (c =? 3); [apply on_end_acks_inv, Hi|].
  destruct (c =? 4); [apply on_congestion_event_inv, Hi|].
  destruct (c =? 6); [apply on_mtu_update_inv, nth_nonneg, Hwf|exact Hi].
Qed.

Lemma steps_cons fx s x l :
  steps fx s (x :: l) =
  match step fx s (fst x) (fst (fst (snd x))) (snd (fst (snd x))) (snd (snd x)) with
  | Some s' => steps fx s' l
  | None => None
  end.
Proof. destruct x as [op [[r075 r1] rg]]; reflexivity. Qed.

Theorem bbr_floor_fixed : forall w m l s' r,
  0 <= m -> 2 * m <= w ->
  Forall (fun p => wf_op (fst p)) l ->
  steps true (build w m) l = Some s' ->
  2 * mtu s' <= window s' r.
Proof.
  intros w m l s' r Hm Hw Hwf H. apply window_floor.
  exact (run_invariant _ (fun s => s) (steps true) (fun s => eq_refl) (steps_cons true) _ inv
           (fun s x => step_inv s (fst x) _ _ _) l _ s' Hwf (build_inv w m Hm Hw) H).
Qed.

(** F7 witness: two bandwidth samples, a first round (ProbeRtt), a lossy round without bandwidth
    growth (full bandwidth reached while in recovery), after the 200 ms dwell a lossy round start
    (ProbeBw, still in recovery, recovery window = 4 * 1200), then MTU 1200 -> 3000. *)
Definition f7_history : list (list Z * (Z * Z * Z)) :=
  map (fun op => (op, (900, 1200, 3461)))
    [[1; 0; 1200; 1]; [1; 1000; 1200; 2]; [2; 2000; 0; 1200; 0; 1000]; [2; 3000; 1000; 1200; 0; 1000];
     [3; 3000; 0; 0; 1; 1]; [1; 4000; 1200; 3]; [2; 5000; 4000; 1200; 0; 1000]; [4; 5000; 4000; 0; 0; 1200];
     [3; 5000; 0; 0; 1; 3]; [1; 204000; 1200; 4]; [2; 205000; 204000; 1200; 0; 1000];
     [4; 205000; 204000; 0; 0; 1200]; [3; 205000; 0; 0; 1; 4]; [6; 3000]].

Lemma f7_wf : Forall (fun p => wf_op (fst p)) f7_history.
Proof. unfold f7_history. cbn [map]. repeat constructor; cbn [fst]; unfold wf_op; repeat constructor; lia. Qed.

Theorem bbr_floor_refuted_before_fix :
  exists w m l s' r,
    0 <= m /\ 2 * m <= w /\ Forall (fun p => wf_op (fst p)) l /\
    steps false (build w m) l = Some s' /\ window s' r < 2 * mtu s'.
Proof.
  exists 12000, 1200, f7_history. eexists. exists 900.
  split; [lia|]. split; [lia|]. split; [exact f7_wf|].
  split; [vm_compute; reflexivity|]. vm_compute. reflexivity.
Qed.

Example f7_history_fixed :
  match steps true (build 12000 1200) f7_history with
  | Some s' => (window s' 900, mtu s', mode s', rec s') = (12000, 3000, 2, 2)
  | None => False
  end.
Proof. vm_compute. reflexivity. Qed.
