(** Exactly-once delivery by the Assembler model: for all executions, no stream offset is covered by
    two returned chunks (ordered or unordered, before or after the mode switch). *)
From QV Require Import Lib.Tac Lib.Bytes Lib.Corr Lib.RangeSpec Model.RangeSet Model.Assembler
  Proofs.BytesProofs Proofs.HeapProofs Proofs.AssemblerProofs Proofs.RangeSetProofs Proofs.BTreeRangeSetProofs.
From Coq Require Import Permutation.
Open Scope Z_scope.

Definition ind (s e x : Z) : Z := if (s <=? x) && (x <? e) then 1 else 0.
Definition cov (x : Z) (b : buf) : Z := ind (b_off b) (bend b) x.
Fixpoint cover (x : Z) (h : list buf) : Z :=
  match h with [] => 0 | b :: r => cov x b + cover x r end.
Definition evcov (x : Z) (e : event) : Z := ind (ev_off e) (ev_off e + zlen (ev_bytes e)) x.
Fixpoint cnt (x : Z) (evs : list event) : Z :=
  match evs with [] => 0 | e :: r => evcov x e + cnt x r end.

Lemma ind_b2z s e x : ind s e x = Z.b2z ((s <=? x) && (x <? e)).
Proof. reflexivity. Qed.

(** [lia] for goals about coverage counts: the indicators become boolean comparisons *)
Ltac ind_lia := unfold cov, evcov, bend, blen in *; rewrite ?ind_b2z in *; lia.

Lemma cov_nonneg x b : 0 <= cov x b <= 1.
Proof. ind_lia. Qed.

Lemma cover_nonneg x h : 0 <= cover x h.
Proof. induction h as [|b r IH]; cbn [cover]; [lia|]. pose proof (cov_nonneg x b). lia. Qed.

Lemma cnt_nonneg x evs : 0 <= cnt x evs.
Proof. induction evs as [|e r IH]; cbn [cnt]; ind_lia. Qed.

Lemma cnt_app x a b : cnt x (a ++ b) = cnt x a + cnt x b.
Proof. induction a as [|e r IH]; cbn [app cnt]; [lia|]. rewrite IH. lia. Qed.

Lemma cover_perm x h h' : Permutation h h' -> cover x h = cover x h'.
Proof. induction 1; cbn [cover]; lia. Qed.

Lemma cover_app x a b : cover x (a ++ b) = cover x a + cover x b.
Proof. induction a as [|e r IH]; cbn [app cover]; [lia|]. rewrite IH. lia. Qed.

Lemma cover_push x h b : cover x (push h b) = cov x b + cover x h.
Proof. rewrite (cover_perm x _ _ (push_perm h b)). reflexivity. Qed.

Lemma cov_empty x b : b_bytes b = [] -> cov x b = 0.
Proof. intros E. unfold cov, bend, blen. rewrite E, zlen_nil. ind_lia. Qed.

Lemma try_mark_cov c offset x :
  cov x (try_mark_defragment c offset) <= cov x c /\
  (1 <= cov x (try_mark_defragment c offset) -> offset <= x) /\
  offset <= bend (try_mark_defragment c offset).
Proof.
  unfold try_mark_defragment, cov, bend, blen.
  destruct (zlen (b_bytes c) <=? Z.max 0 (offset - b_off c)) eqn:E; cbn [b_off b_bytes];
    rewrite ?zlen_zskipn, ?zlen_nil, !ind_b2z; lia.
Qed.

Lemma mark_all_cover cs : forall offset acc x,
  cover x (fst (mark_all cs offset acc)) <= cover x cs /\
  cover x (fst (mark_all cs offset acc)) <= 1 /\
  (1 <= cover x (fst (mark_all cs offset acc)) -> offset <= x).
Proof.
  induction cs as [|c r IH]; intros offset acc x; cbn [mark_all].
  - cbn [fst cover]. lia.
  - set (c' := try_mark_defragment c offset).
    specialize (IH (bend c') (acc + blen c') x).
    destruct (mark_all r (bend c') (acc + blen c')) as [r' b]. cbn [fst cover] in *.
    destruct (try_mark_cov c offset x) as (T1 & T2 & T3). fold c' in T1, T2, T3.
    pose proof (cov_nonneg x c'). pose proof (cover_nonneg x r').
    (* a point covered by [c'] lies below [bend c'], one covered by [r'] at or above it *)
    assert (Excl : 1 <= cov x c' -> x < bend c') by ind_lia.
    lia.
Qed.

Lemma rebuild_cover cs : forall h offset buffer x,
  cover x (rebuild cs h offset buffer) =
  cover x h + ind offset (offset + zlen buffer) x + cover x cs.
Proof.
  assert (Nil : forall offset x, ind offset (offset + zlen []) x = 0)
    by (intros; rewrite zlen_nil; ind_lia).
  assert (Push : forall h offset buffer x,
            cover x (push h (mkBuf offset buffer (zlen buffer) true)) =
            cover x h + ind offset (offset + zlen buffer) x)
    by (intros; rewrite cover_push; unfold cov, bend, blen; cbn [b_off b_bytes]; lia).
  induction cs as [|c r IH]; intros h offset buffer x; cbn [rebuild cover].
  - destruct buffer; [rewrite Nil|rewrite Push]; lia.
  - destruct (b_defrag c).
    + rewrite IH. destruct (b_bytes c) eqn:Eb; [rewrite (cov_empty x c Eb)|rewrite cover_push]; lia.
    + destruct (b_off c =? offset + zlen buffer) eqn:E.
      * rewrite IH. unfold cov, bend, blen, zlen in *. rewrite app_length. ind_lia.
      * destruct buffer; rewrite IH, ?Push, ?Nil; unfold cov, bend, blen; lia.
Qed.

Lemma defragment_cover fixed a x :
  let start := if fixed && ordered a then bytes_read a else 0 in
  cover x (data (defragment fixed a)) <= cover x (data a) /\
  cover x (data (defragment fixed a)) <= 1 /\
  (1 <= cover x (data (defragment fixed a)) -> start <= x).
Proof.
  cbn zeta. unfold defragment.
  pose proof (mark_all_cover (rev (into_sorted_vec (data a)))
                (if fixed && ordered a then bytes_read a else 0) 0 x) as M.
  destruct (mark_all _ _ _) as [marked nbuf]. cbn [fst data] in *.
  rewrite rebuild_cover, zlen_nil. cbn [cover].
  assert (P : cover x (rev (into_sorted_vec (data a))) = cover x (data a)).
  { apply cover_perm. eapply perm_trans; [symmetry; apply Permutation_rev | apply into_sorted_vec_perm]. }
  ind_lia.
Qed.

Lemma insert_tail_cover fixed a offset bytes alloc a' ok :
  insert_tail fixed a offset bytes alloc = Some (a', ok) ->
  (forall x, cover x (data a') <= cover x (data a) + ind offset (offset + zlen bytes) x) /\
  recvd a' = recvd a /\ ordered a' = ordered a /\ bytes_read a' = bytes_read a.
Proof.
  intros H. set (a1 := push_buffer a (mkBuf offset bytes alloc false)).
  assert (C1 : forall x, cover x (data a1) = cover x (data a) + ind offset (offset + zlen bytes) x).
  { intros x. cbn [a1 push_buffer data]. rewrite cover_push. unfold cov, bend, blen.
    cbn [b_off b_bytes]. lia. }
  destruct (insert_tail_cases _ _ _ _ _ _ _ H) as [[_ ->]|[->| ->]]; fold a1.
  - split; [|auto]. intros x. ind_lia.
  - split; [|auto]. intros x. rewrite C1. lia.
  - destruct (defragment_fields fixed a1) as (E1 & E2 & E3 & _). rewrite E1, E2, E3.
    split; [|auto]. intros x. rewrite <- C1. apply defragment_cover.
Qed.

Section Dups.
Variable P : Z -> Prop.

Lemma discard_dups_cover dups : forall a offset bytes alloc a' offset' bytes' END,
  discard_dups dups a offset bytes alloc = Some (a', offset', bytes') ->
  its_sorted offset END dups -> offset + zlen bytes = END ->
  (forall x, offset <= x < END -> (P x <-> in_its x dups)) ->
  offset <= offset' /\ offset' + zlen bytes' = END /\
  (forall x, offset' <= x < END -> ~ P x) /\
  (forall x, cover x (data a') = cover x (data a) \/
             (cover x (data a') = cover x (data a) + 1 /\ offset <= x < offset' /\ ~ P x)).
Proof.
  induction dups as [|[ds de] r IH]; intros a offset bytes alloc a' offset' bytes' END H S L HP.
  - injection H as <- <- <-. split; [lia|]. split; [exact L|]. split; [|auto].
    intros x Hx Px. apply (HP x Hx) in Px. now apply in_its_nil in Px.
  - cbn [its_sorted] in S. destruct S as (S1 & S2 & S3 & S4).
    assert (HPr : forall x, de <= x < END -> (P x <-> in_its x r)).
    { intros x Hx. rewrite (HP x), in_its_cons by lia. split; [intros [A|A]; [lia|exact A] | now right]. }
    assert (NotP : forall x, offset <= x < ds -> ~ P x).
    { intros x Hx Px. apply (HP x) in Px; [|lia]. apply in_its_cons in Px as [A|A]; [lia|].
      apply (its_sorted_lower _ _ _ _ S4) in A. lia. }
    apply discard_dups_cons in H as (L1 & L2 & L3 & H). set (n := Z.max 0 (ds - offset)) in *.
    apply IH with (END := END) in H; auto; [|rewrite !zlen_zskipn; lia].
    destruct H as (H1 & H2 & H3 & H4).
    split; [lia|]. split; [exact H2|]. split; [exact H3|].
    assert (C : forall x, cover x (data (if offset <? ds
                then push_buffer a (mkBuf offset (zfirstn n bytes) alloc false) else a))
              = cover x (data a) + ind offset (offset + n) x).
    { intros x. destruct (offset <? ds) eqn:E1; [|ind_lia].
      cbn [push_buffer data]. rewrite cover_push. unfold cov, bend, blen. cbn [b_off b_bytes].
      rewrite zlen_zfirstn. ind_lia. }
    intros x. specialize (H4 x). specialize (NotP x). rewrite C, ind_b2z in H4.
    assert (Hin : offset <= x < ds \/ ~ offset <= x < ds) by lia.
    destruct Hin as [In|Out].
    + (* in the pushed prefix, which lies before [de] *)
      right. destruct H4 as [H4|(_ & H4' & _)]; [|lia]. split; [lia|]. split; [lia|exact (NotP In)].
    + destruct H4 as [H4|(H4 & H4' & H4'')]; [left; lia|right; split; [lia|]; split; [lia|exact H4'']].
Qed.

(** The idea of exactly-once: de-duplication followed by [insert_tail] adds cover only at points of
    the new range that [P] (membership in [recvd]) does not hold of. *)
Lemma insert_cover_fresh fixed dups a offset bytes alloc a1 offset1 bytes1 a2 a' ok END :
  its_sorted offset END dups -> offset + zlen bytes = END ->
  (forall x, offset <= x < END -> (P x <-> in_its x dups)) ->
  discard_dups dups a offset bytes alloc = Some (a1, offset1, bytes1) ->
  insert_tail fixed a2 offset1 bytes1 alloc = Some (a', ok) -> data a2 = data a1 ->
  forall x, cover x (data a') <= cover x (data a) \/
            (cover x (data a') <= cover x (data a) + 1 /\ offset <= x < END /\ ~ P x).
Proof.
  intros S L HP D T E x.
  apply discard_dups_cover with (END := END) in D as (D1 & D2 & D3 & D4); auto.
  apply insert_tail_cover in T as (T1 & _). specialize (T1 x). rewrite E, D2, ind_b2z in T1.
  pose proof (zlen_nonneg bytes1).
  destruct (D4 x) as [C|(C & Hx & NP)]; [|right; split; [lia|]; split; [lia|exact NP]].
  assert (Tail : offset1 <= x < END \/ ~ offset1 <= x < END) by lia.
  destruct Tail as [I1|I1]; [right; split; [lia|]; split; [lia|exact (D3 x I1)] | left; lia].
Qed.
End Dups.

Lemma read_unordered_cover a max_length a' res :
  read a max_length false = Some (a', res) -> 0 <= max_length ->
  (forall x, cover x (data a') +
             match res with Some (off, b) => ind off (off + zlen b) x | None => 0 end
             = cover x (data a)) /\
  recvd a' = recvd a.
Proof.
  unfold read. rewrite read_loop_S. intros H Hm. destruct (data a) as [|chunk rest] eqn:D.
  - injection H as <- <-. rewrite D. split; [intros x; cbn [cover]; lia | reflexivity].
  - destruct (read_tail_cases _ _ _ _ _ _ _ _ H) as (_ & R & [(L & -> & _ & Pm)|(L & -> & _ & Pm)]);
      (split; [intros x; rewrite (cover_perm x _ _ Pm); cbn [cover]|exact R]);
      unfold cov, bend, blen, advance in *; cbn [b_off b_bytes].
    + rewrite zlen_zskipn, zlen_zfirstn, !ind_b2z. lia.
    + lia.
Qed.

Section W.
Variable w : Z -> Z.
Variable hi : Z.
Notation good := (AssemblerProofs.good w hi).
Notation op_ok := (AssemblerProofs.op_ok w hi).

Notation content_inv := (AssemblerProofs.content_inv w hi).

Definition once_unordered (a : t) (evs : list event) : Prop :=
  wfb (-1) (recvd a) /\
  forall x, cover x (data a) + cnt x evs <= 1 /\
            (1 <= cover x (data a) + cnt x evs -> mem x (recvd a)).

Definition once_inv (a : t) (evs : list event) : Prop :=
  (ordered a = true -> filter ev_ord evs = evs) /\
  (ordered a = false -> once_unordered a evs).

Lemma chain_cnt x evs : forall s,
  chain s evs -> cnt x evs = ind s (s + zlen (concat (map ev_bytes evs))) x.
Proof.
  induction evs as [|e r IH]; intros s C; cbn [chain cnt map concat] in *.
  - rewrite zlen_nil. ind_lia.
  - destruct C as [E C]. rewrite (IH _ C). unfold evcov, zlen. rewrite app_length, <- E. ind_lia.
Qed.

Lemma ordered_cnt a evs x :
  content_inv a evs -> once_inv a evs -> ordered a = true -> cnt x evs = ind 0 (bytes_read a) x.
Proof.
  intros (_ & _ & C & B) [Jo _] Oa. rewrite (B Oa). unfold obytes. rewrite (Jo Oa) in *.
  exact (chain_cnt x evs 0 C).
Qed.

(** The fold is how [ensure_ordering] fills [recvd] at the switch to unordered mode. *)
Lemma fold_recvd h : forall m,
  wfb (-1) m -> Forall good h ->
  let m' := fold_left (fun m c => snd (RangeSet.insert (b_off c) (bend c) m)) h m in
  wfb (-1) m' /\ (forall x, mem x m -> mem x m') /\ (forall x, 1 <= cover x h -> mem x m').
Proof.
  induction h as [|c r IH]; intros m W G; cbn [fold_left cover].
  - split; [exact W|]. split; [auto | intros x Hx; lia].
  - inversion G as [|? ? Gc Gr]; subst.
    destruct (insert_any m (-1) (b_off c) (bend c) W) as [S1 S2].
    { intros Lt. destruct Gc as [_ [E|[E _]]]; [|lia].
      unfold bend, blen in Lt. rewrite E, zlen_nil in Lt. lia. }
    destruct (IH _ S1 Gr) as (I1 & I2 & I3).
    split; [exact I1|]. split; [intros x M; apply I2, S2; now left|].
    intros x Hx. pose proof (cover_nonneg x r).
    destruct (Z.le_gt_cases 1 (cov x c)); [apply I2, S2; right; ind_lia | apply I3; lia].
Qed.

Lemma switch_once a a1 :
  ordered a = true -> ensure_ordering true a false = Some a1 ->
  Forall good (data a) ->
  wfb (-1) (recvd a1) /\ (forall x, cover x (data a1) <= 1) /\
  (forall x, 1 <= cover x (data a1) -> bytes_read a <= x /\ mem x (recvd a1)) /\
  (forall x, 0 <= x < bytes_read a -> mem x (recvd a1)).
Proof.
  intros Ho H G. unfold ensure_ordering in H. rewrite Ho in H. cbn [andb negb] in H.
  inversion H; subst; clear H. cbn [recvd data].
  set (a0 := match data a with [] => a | _ :: _ => defragment true a end).
  assert (A0 : Forall good (data a0) /\ bytes_read a0 = bytes_read a /\
               forall x, cover x (data a0) <= 1 /\ (1 <= cover x (data a0) -> bytes_read a <= x)).
  { unfold a0. destruct (data a) as [|c r] eqn:D.
    - rewrite D. split; [constructor|]. split; [reflexivity|]. cbn [cover]. intros; lia.
    - rewrite <- D in *. split; [now apply defragment_good|].
      split; [apply (defragment_fields true a)|]. intros x.
      pose proof (defragment_cover true a x) as (_ & D2 & D3).
      cbn zeta in D3. rewrite Ho in D3. auto. }
  destruct A0 as (G0 & B0 & C). rewrite B0.
  destruct (insert_any [] (-1) 0 (bytes_read a) I ltac:(lia)) as [R1 R2].
  destruct (fold_recvd (data a0) _ R1 G0) as (F1 & F2 & F3).
  split; [exact F1|]. split; [apply C|]. split.
  - intros x Hx. split; [now apply C | now apply F3].
  - intros x Hx. apply F2, R2. now right.
Qed.

Lemma insert_unordered_once a off bytes alloc a' ok evs :
  insert true a off bytes alloc = Some (a', ok) -> ordered a = false -> 0 <= off ->
  once_unordered a evs -> once_unordered a' evs.
Proof.
  unfold insert. intros H Ho Hoff [Wf U].
  destruct (alloc <? zlen bytes); [discriminate|].
  destruct bytes as [|b0 bs]; [inversion H; subst; split; auto|].
  set (bytes := b0 :: bs) in *. set (a0 := with_end a off bytes) in *.
  unfold insert_body in H. change (ordered a0) with (ordered a) in H. rewrite Ho in H. cbn [negb] in H.
  change (recvd a0) with (recvd a) in H.
  assert (Hlen : 0 < zlen bytes) by (unfold zlen, bytes; cbn [length]; lia).
  pose proof (replace_spec (recvd a) (-1) off (off + zlen bytes) Wf ltac:(lia) ltac:(lia)) as R.
  destruct (replace off (off + zlen bytes) (recvd a)) as [dups recvd'].
  destruct R as (R1 & R2 & R3 & R4).
  destruct (discard_dups dups a0 off bytes alloc) as [[[a1 offset1] bytes1]|] eqn:D; [|discriminate].
  pose proof (insert_cover_fresh (fun x => mem x (recvd a)) true dups a0 off bytes alloc a1 offset1
                bytes1 _ a' ok (off + zlen bytes) R3 eq_refl R4 D H eq_refl) as Gain.
  apply insert_tail_cover in H as (_ & T2 & _). cbn [recvd] in T2.
  unfold once_unordered. rewrite T2. split; [exact R1|].
  intros x. destruct (U x) as [U1 U2]. change (data a0) with (data a) in Gain.
  pose proof (cover_nonneg x (data a)). pose proof (cnt_nonneg x evs). pose proof (cover_nonneg x (data a')).
  rewrite R2. destruct (Gain x) as [Le|(Le & Hx & Fresh)].
  - split; [lia|]. intros Hc. left. apply U2. lia.
  - (* not in [recvd], so covered by no buffer and returned by no read so far *)
    assert (Z0 : cover x (data a) + cnt x evs = 0)
      by (destruct (Z.le_gt_cases 1 (cover x (data a) + cnt x evs)) as [O|O]; [destruct (Fresh (U2 O))|lia]).
    split; [lia|]. intros _. right. exact Hx.
Qed.

Lemma ensure_once a ord a0 evs :
  ensure_ordering true a ord = Some a0 -> content_inv a evs -> once_inv a evs -> once_inv a0 evs.
Proof.
  intros H Kv Jv. pose proof Kv as (G & _).
  destruct (ensure_ordering_good w hi true a ord a0 H G) as (G0 & B0 & O0 & T0).
  destruct ord; [rewrite (T0 eq_refl); exact Jv|].
  destruct (ordered a) eqn:Ho.
  - destruct (switch_once a a0 Ho H G) as (S1 & S2 & S3 & S4).
    split; rewrite O0; [discriminate|]. intros _. split; [exact S1|]. intros x.
    pose proof (ordered_cnt a evs x Kv Jv Ho) as Cx.
    specialize (S2 x). specialize (S3 x). specialize (S4 x).
    pose proof (cover_nonneg x (data a0)). rewrite ind_b2z in Cx. split; [lia|].
    intros Hx. destruct (Z.le_gt_cases 1 (cover x (data a0))); [now apply S3|apply S4; lia].
  - unfold ensure_ordering in H. rewrite Ho in H. cbn [andb negb] in H. injection H as <-. exact Jv.
Qed.

Lemma read_once a m ord a1 res evs :
  read a m ord = Some (a1, res) -> 0 <= m -> ordered a = ord ->
  content_inv a evs -> once_inv a evs ->
  once_inv a1 (evs ++ match res with Some (off, b) => [(ord, off, b)] | None => [] end).
Proof.
  intros H Hm Oa (G & _) [Jo Ju].
  destruct (read_good w hi a m ord a1 res H G Hm) as (_ & O1 & _).
  unfold once_inv. rewrite O1, Oa. destruct ord.
  - split; [|discriminate]. intros _. rewrite filter_app, (Jo Oa).
    destruct res as [[off b]|]; reflexivity.
  - split; [discriminate|]. intros _. destruct (Ju Oa) as [Wf U].
    destruct (read_unordered_cover a m a1 res H Hm) as [C Rv].
    unfold once_unordered. rewrite Rv. split; [exact Wf|].
    intros x. rewrite cnt_app. specialize (C x). destruct (U x) as [U1 U2].
    assert (E : cover x (data a1) + (cnt x evs + cnt x match res with Some (off, b) => [(false, off, b)] | None => [] end)
                = cover x (data a) + cnt x evs)
      by (destruct res as [[off b]|]; cbn [cnt]; unfold evcov, ev_off, ev_bytes; cbn [fst snd]; lia).
    rewrite E. auto.
Qed.

Lemma step_once a evs o a1 out :
  step a (encode o) = Some (a1, out) -> op_ok o -> content_inv a evs /\ once_inv a evs ->
  content_inv a1 (evs ++ event_of o out) /\ once_inv a1 (evs ++ event_of o out).
Proof.
  intros H Hok [Kv Jv]. split; [exact (step_content w hi _ _ _ _ _ H Hok Kv)|].
  apply step_cases in H. destruct o as [off al b | m ord | ord | | | ].
  - destruct H as (-> & ok & H), Hok as [Ho Hs], Jv as [Jo Ju]. rewrite app_nil_r.
    destruct (insert_good w hi true a off b al a1 ok H (proj1 Kv) Hs) as (_ & _ & O1).
    unfold once_inv. rewrite O1. split; [exact Jo|].
    intros Oa. exact (insert_unordered_once _ _ _ _ _ _ _ H Oa Ho (Ju Oa)).
  - destruct H as [(-> & ->)|(a0 & res & E & R & ->)]; [now rewrite app_nil_r|].
    destruct (ensure_content w hi _ _ _ _ E Kv) as [K0 O0].
    exact (read_once _ _ _ _ _ _ R Hok O0 K0 (ensure_once _ _ _ _ E Kv Jv)).
  - destruct H as (-> & [->|E]); rewrite app_nil_r; [exact Jv|exact (ensure_once _ _ _ _ E Kv Jv)].
  - destruct H as (-> & ->). now rewrite app_nil_r.
  - destruct H as (-> & ->), Jv as [Jo Ju]. rewrite app_nil_r. split; [exact Jo|].
    intros Oa. destruct (Ju Oa) as [Wf U]. split; [exact Wf|].
    intros x. destruct (U x) as [U1 U2]. pose proof (cover_nonneg x (data a)).
    cbn [clear data cover]. split; [lia|]. intros Hx. apply U2. lia.
  - destruct H as (-> & ->). now rewrite app_nil_r.
Qed.

(** Every stream offset is covered by at most one returned chunk, ordered or unordered, before or
    after the mode switch. *)
Theorem delivered_at_most_once os a' evs x :
  Forall op_ok os -> exec init os = Some (a', evs) -> cnt x evs <= 1.
Proof.
  intros Hok H.
  assert (I0 : content_inv init [] /\ once_inv init []).
  { split; [apply content_init|split; [reflexivity|discriminate]]. }
  destruct (exec_invariant w hi (fun a evs => content_inv a evs /\ once_inv a evs) step_once
              os init [] a' evs Hok H I0)
    as [Kv Jv]. cbn [app] in Kv, Jv.
  destruct (ordered a') eqn:O.
  - rewrite (ordered_cnt a' evs x Kv Jv O). ind_lia.
  - destruct (proj2 Jv O) as [_ U]. destruct (U x) as [U1 _]. pose proof (cover_nonneg x (data a')). lia.
Qed.

Lemma evcov_nonneg x e : 0 <= evcov x e.
Proof. ind_lia. Qed.

Lemma cnt_nth x r : forall j ej, nth_error r j = Some ej -> evcov x ej <= cnt x r.
Proof.
  induction r as [|e' r' IH]; intros j ej Hj; [destruct j; discriminate|].
  destruct j as [|j]; cbn [nth_error cnt] in *.
  - inversion Hj; subst. pose proof (cnt_nonneg x r'). lia.
  - specialize (IH j ej Hj). pose proof (evcov_nonneg x e'). lia.
Qed.

Lemma cnt_two evs : forall i j ei ej x,
  (i < j)%nat -> nth_error evs i = Some ei -> nth_error evs j = Some ej ->
  evcov x ei + evcov x ej <= cnt x evs.
Proof.
  induction evs as [|e r IH]; intros i j ei ej x Hij Hi Hj; [destruct i; discriminate|].
  destruct i as [|i]; destruct j as [|j]; try lia; cbn [nth_error cnt] in *.
  - inversion Hi; subst. pose proof (cnt_nth x r j ej Hj). lia.
  - specialize (IH i j ei ej x ltac:(lia) Hi Hj). pose proof (evcov_nonneg x e). lia.
Qed.

(** Two distinct returned chunks never overlap. *)
Theorem unordered_disjoint os a' evs :
  Forall op_ok os -> exec init os = Some (a', evs) ->
  forall i j ei ej, i <> j -> nth_error evs i = Some ei -> nth_error evs j = Some ej ->
    ev_bytes ei = [] \/ ev_bytes ej = [] \/
    ev_off ei + zlen (ev_bytes ei) <= ev_off ej \/ ev_off ej + zlen (ev_bytes ej) <= ev_off ei.
Proof.
  intros Hok H i j ei ej Hij Hi Hj.
  destruct (ev_bytes ei) as [|bi ti] eqn:Ebi; [now left|].
  destruct (ev_bytes ej) as [|bj tj] eqn:Ebj; [right; now left|].
  right; right. rewrite <- Ebi, <- Ebj.
  assert (Li : 0 < zlen (ev_bytes ei)) by (rewrite Ebi; unfold zlen; cbn [length]; lia).
  assert (Lj : 0 < zlen (ev_bytes ej)) by (rewrite Ebj; unfold zlen; cbn [length]; lia).
  (* otherwise the larger of the two offsets is covered by both chunks *)
  pose proof (delivered_at_most_once os a' evs (Z.max (ev_off ei) (ev_off ej)) Hok H) as C.
  assert (T : evcov (Z.max (ev_off ei) (ev_off ej)) ei + evcov (Z.max (ev_off ei) (ev_off ej)) ej
              <= cnt (Z.max (ev_off ei) (ev_off ej)) evs).
  { destruct (Nat.lt_ge_cases i j) as [L|L].
    - eapply cnt_two; eauto.
    - rewrite Z.add_comm. eapply (cnt_two evs j i); eauto. lia. }
  clear - Li Lj C T. ind_lia.
Qed.
End W.
