(** Encode, decode and size agree on the wire form [vform] of a varint; the decoder on arbitrary
    bytes. *)
From QV Require Import Lib.Tac Lib.Bytes Lib.Corr Model.Varint Proofs.BytesProofs.
Open Scope Z_scope.

(** The body of [in62 x], a constant that Frames and TParams each define. *)
Lemma in62_true x : (0 <=? x) && (x <? 2 ^ 62) = true <-> 0 <= x < 2 ^ 62.
Proof. lia. Qed.

Definition vtag (x : Z) : Z :=
  if x <? 2 ^ 6 then 0 else if x <? 2 ^ 14 then 1 else if x <? 2 ^ 30 then 2 else 3.

Definition vform (t x : Z) : list Z :=
  be_bytes (S (extra t)) (t * (64 * 256 ^ Z.of_nat (extra t)) + x).

Lemma encode_vform x :
  0 <= x < 2 ^ 62 ->
  encode x = Some (vform (vtag x) x) /\ size x = Some (Z.of_nat (S (extra (vtag x)))).
Proof.
  intros Hx. unfold encode, size, vtag. destruct (x <? 0) eqn:E0; [lia|].
  destruct (x <? 2 ^ 6); [split; reflexivity|].
  destruct (x <? 2 ^ 14); [split; reflexivity|].
  destruct (x <? 2 ^ 30); [split; reflexivity|].
  destruct (x <? 2 ^ 62) eqn:E; [split; reflexivity|lia].
Qed.

Lemma vtag_bound x :
  0 <= x < 2 ^ 62 -> 0 <= vtag x < 4 /\ x < 64 * 256 ^ Z.of_nat (extra (vtag x)).
Proof.
  intros Hx. unfold vtag.
  destruct (Z.ltb_spec x (2 ^ 6)) as [H|_]; [split; [lia|exact H]|].
  destruct (Z.ltb_spec x (2 ^ 14)) as [H|_]; [split; [lia|exact H]|].
  destruct (Z.ltb_spec x (2 ^ 30)) as [H|_]; (split; [lia|]); [exact H|exact (proj2 Hx)].
Qed.

Lemma extra_le t : (extra t <= 7)%nat.
Proof. unfold extra. destruct (t =? 0), (t =? 1), (t =? 2); lia. Qed.

Lemma decode_vform t x r :
  0 <= t < 4 -> 0 <= x < 64 * 256 ^ Z.of_nat (extra t) ->
  decode (vform t x ++ r) = Some (x, r).
Proof.
  intros Ht Hx. unfold vform. set (k := extra t) in *.
  assert (Hp : 0 < 256 ^ Z.of_nat k) by (apply Z.pow_pos_nonneg; lia).
  set (p := 256 ^ Z.of_nat k) in *.
  (* the first byte is [t * 64 + x / p]: its top two bits give back [t], the rest continues [x] *)
  replace (t * (64 * p) + x) with (x + t * 64 * p) by ring.
  assert (Hxp : 0 <= x / p < 64).
  { split; [apply Z.div_pos; lia|apply Z.div_lt_upper_bound; lia]. }
  cbn [be_bytes app]. unfold decode. fold p.
  rewrite Z.div_add, (Z.mod_small (x / p + t * 64)) by lia.
  replace ((x / p + t * 64) / 64) with t by lia.
  replace ((x / p + t * 64) mod 64) with (x / p) by lia. fold k.
  rewrite ltb_length_app, firstn_app_exact, skipn_app_exact by apply be_bytes_length.
  rewrite be_val_be_bytes. fold p. rewrite Z.mod_add by lia.
  do 2 f_equal. pose proof (Z.div_mod x p). lia.
Qed.

Definition venc (x : Z) : list Z := match encode x with Some b => b | None => [] end.

Lemma venc_vform x : 0 <= x < 2 ^ 62 -> venc x = vform (vtag x) x.
Proof. intros Hx. unfold venc. now rewrite (proj1 (encode_vform x Hx)). Qed.

Lemma encode_venc x : 0 <= x < 2 ^ 62 -> encode x = Some (venc x).
Proof. intros Hx. rewrite venc_vform by exact Hx. apply encode_vform, Hx. Qed.

Lemma decode_venc x r : 0 <= x < 2 ^ 62 -> decode (venc x ++ r) = Some (x, r).
Proof.
  intros Hx. rewrite venc_vform by exact Hx. destruct (vtag_bound x Hx). apply decode_vform; lia.
Qed.

Lemma varint_roundtrip x r :
  0 <= x < 2 ^ 62 ->
  exists b, encode x = Some b /\ decode (b ++ r) = Some (x, r).
Proof. intros Hx. exists (venc x). split; [apply encode_venc|apply decode_venc]; exact Hx. Qed.

Lemma size_venc x : 0 <= x < 2 ^ 62 -> size x = Some (zlen (venc x)).
Proof.
  intros Hx. rewrite venc_vform by exact Hx. unfold vform, zlen. rewrite be_bytes_length.
  apply encode_vform, Hx.
Qed.

Lemma varint_size_encode x :
  0 <= x < 2 ^ 62 ->
  exists b s, encode x = Some b /\ size x = Some s /\ zlen b = s.
Proof.
  intros Hx. exists (venc x), (zlen (venc x)).
  split; [apply encode_venc, Hx|]. split; [apply size_venc, Hx|reflexivity].
Qed.

Lemma varint_encode_none x : ~ (0 <= x < 2 ^ 62) -> encode x = None.
Proof.
  intros H. unfold encode.
  destruct (x <? 0) eqn:E0; [reflexivity|].
  destruct (x <? 2 ^ 6) eqn:E1; [lia|].
  destruct (x <? 2 ^ 14) eqn:E2; [lia|].
  destruct (x <? 2 ^ 30) eqn:E3; [lia|].
  destruct (x <? 2 ^ 62) eqn:E4; [lia|reflexivity].
Qed.

Lemma venc_length x : 0 <= x < 2 ^ 62 -> (1 <= length (venc x) <= 8)%nat.
Proof.
  intros Hx. rewrite venc_vform by exact Hx. unfold vform. rewrite be_bytes_length.
  pose proof (extra_le (vtag x)). lia.
Qed.

Lemma venc_length_mono a b :
  0 <= a <= b -> b < 2 ^ 62 -> (length (venc a) <= length (venc b))%nat.
Proof.
  intros Hab Hb. rewrite !venc_vform by lia. unfold vform. rewrite !be_bytes_length. unfold vtag.
  destruct (Z.ltb_spec a (2 ^ 6)); [|destruct (Z.ltb_spec a (2 ^ 14)); [|destruct (Z.ltb_spec a (2 ^ 30))]];
    (destruct (Z.ltb_spec b (2 ^ 6)); [|destruct (Z.ltb_spec b (2 ^ 14)); [|destruct (Z.ltb_spec b (2 ^ 30))]]);
    vm_compute; lia.
Qed.

Lemma venc_small t : 0 <= t < 64 -> venc t = [t].
Proof.
  intros Ht. rewrite venc_vform by lia. unfold vtag.
  destruct (Z.ltb_spec t (2 ^ 6)); [|lia].
  change (vform 0 t) with [(t / 256 ^ 0) mod 256].
  rewrite Z.pow_0_r, Z.div_1_r, Z.mod_small by lia. reflexivity.
Qed.

Lemma decode_inv bs v r :
  decode bs = Some (v, r) ->
  exists p, bs = p ++ r /\ (1 <= length p <= 8)%nat /\ forall x, decode (p ++ x) = Some (v, x).
Proof.
  destruct bs as [|b0 t]; cbn [decode]; [discriminate|].
  destruct (Nat.ltb (length t) (extra (b0 / 64))) eqn:El; [discriminate|]. intros [= <- <-].
  apply Nat.ltb_ge in El. pose proof (extra_le (b0 / 64)).
  assert (Hl : length (firstn (extra (b0 / 64)) t) = extra (b0 / 64))
    by (apply firstn_length_le; exact El).
  exists (b0 :: firstn (extra (b0 / 64)) t). split; [|split].
  - cbn [app]. now rewrite firstn_skipn.
  - cbn [length]. lia.
  - intros x. cbn [app decode].
    now rewrite ltb_length_app, firstn_app_exact, skipn_app_exact by exact Hl.
Qed.

(** Six bits of the first byte and at most seven more bytes: below [64 * 256 ^ 7]. *)
Lemma decode_range bs v r :
  all_bytes bs = true -> decode bs = Some (v, r) -> 0 <= v < 2 ^ 62.
Proof.
  destruct bs as [|b0 t]; cbn [decode]; [discriminate|]. intros Hb.
  cbn [all_bytes forallb] in Hb. apply andb_true_iff in Hb as [_ Ht].
  destruct (Nat.ltb (length t) (extra (b0 / 64))) eqn:El; [discriminate|]. intros [= <- _].
  apply Nat.ltb_ge in El. set (n := extra (b0 / 64)) in *.
  pose proof (be_val_bound (firstn n t) (b0 mod 64) (all_bytes_firstn _ _ Ht)) as Hbd.
  unfold zlen in Hbd. rewrite firstn_length_le in Hbd by exact El.
  assert (0 < 256 ^ Z.of_nat n <= 256 ^ 7).
  { pose proof (extra_le (b0 / 64)). split; [apply Z.pow_pos_nonneg|apply Z.pow_le_mono_r]; lia. }
  nia.
Qed.

(** Any byte string fails or yields a value in range and a suffix of the input: no read past the
    buffer. *)
Lemma varint_decode_total bs :
  all_bytes bs = true ->
  match decode bs with
  | None => True
  | Some (v, r) => 0 <= v < 2 ^ 62 /\ exists p, bs = p ++ r /\ (1 <= length p <= 8)%nat
  end.
Proof.
  intros Hb. destruct (decode bs) as [[v r]|] eqn:E; [|exact I].
  split; [exact (decode_range _ _ _ Hb E)|].
  destruct (decode_inv _ _ _ E) as (p & Hp & Hl & _). now exists p.
Qed.
