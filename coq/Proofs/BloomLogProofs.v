(** The [BloomTokenLog] model (Model/BloomLog.v): single use of (nonce, issued) pairs for all
    histories, all [filter_max_bytes], all false-positive oracle values, across both turnover arms. *)
From QV Require Import Lib.Tac Lib.Corr Model.BloomLog.
Open Scope Z_scope.

Lemma filter_check_mem fmb f fp b :
  mem fp (elems (fst (filter_check fmb f fp b))) = true /\
  (forall x, mem x (elems f) = true -> mem x (elems (fst (filter_check fmb f fp b))) = true).
Proof.
  unfold filter_check. destruct (mem fp (elems f)) eqn:E; [split; [exact E|auto]|].
  destruct (is_bloom f); cbn [fst elems mem]; rewrite Z.eqb_refl;
    (split; [reflexivity|intros x Hx; rewrite Hx; apply orb_true_r]).
Qed.

(** No false negatives: a member is always rejected. *)
Lemma filter_check_rejects_member fmb f fp b :
  mem fp (elems f) = true -> snd (filter_check fmb f fp b) = false.
Proof. intros H. unfold filter_check. rewrite H. reflexivity. Qed.

Lemma filter_check_set_exact fmb f fp :
  is_bloom f = false -> filter_check fmb f fp true = filter_check fmb f fp false.
Proof. intros H. unfold filter_check. rewrite H. reflexivity. Qed.

Lemma filter_check_empty fmb fp b :
  filter_check fmb empty_filter fp b
  = (mkF (negb (hb_capacity (zlen [fp]) * 8 <=? fmb)) [fp], true).
Proof. reflexivity. Qed.

(** [A] is the ghost list of accepted (fingerprint, expiry) pairs, [expiry = issued + L]. *)
Definition Inv (L : Z) (s : BloomLog.t) (A : list (Z * Z)) : Prop :=
  forall fp e, In (fp, e) A ->
    e < p1s s \/
    (p1s s <= e < p1s s + L /\ mem fp (elems (f1 s)) = true) \/
    (p1s s + L <= e < p1s s + 2 * L /\ mem fp (elems (f2 s)) = true).

Lemma inv_init : forall L, Inv L init [].
Proof. intros L fp e H. destruct H. Qed.

Definition slot (two : bool) (s : t) : filter := if two then f2 s else f1 s.
Definition put (two : bool) (s : t) (f : filter) : t :=
  if two then mk (p1s s) (f1 s) f else mk (p1s s) f (f2 s).

(** [s0] is the log after the turnovers the expiry requires, [two] the filter it then falls into. *)
Lemma check_cases fmb s n t L b :
  0 <= L ->
  (* zero lifetime, or expired *)
  check fmb s n t L b = (s, false) \/
  exists s0 (two : bool),
    (forall A, Inv L s A -> Inv L s0 A) /\ p1s s <= p1s s0 /\
    (let lo := if two then p1s s0 + L else p1s s0 in lo <= t + L < lo + L) /\
    check fmb s n t L b =
    (put two s0 (fst (filter_check fmb (slot two s0) (n mod 2 ^ 64) b)),
     snd (filter_check fmb (slot two s0) (n mod 2 ^ 64) b)).
Proof.
  intros HL. unfold check. cbv zeta.
  destruct (L =? 0) eqn:E0; [left; reflexivity|].
  destruct (t + L <? p1s s) eqn:E1; [left; reflexivity|right].
  pose proof (Z.div_mod (t + L - p1s s) L ltac:(lia)) as Hd.
  pose proof (Z.mod_pos_bound (t + L - p1s s) L ltac:(lia)) as Hm.
  set (pf := (t + L - p1s s) / L) in *.
  assert (Hpf : 0 <= pf) by nia.
  destruct (pf =? 0) eqn:P0; [|destruct (pf =? 1) eqn:P1; [|destruct (pf =? 2) eqn:P2]].
  - exists s, false. cbn [slot put].
    destruct (filter_check fmb (f1 s) (n mod 2 ^ 64) b). repeat split; auto; nia.
  - exists s, true. cbn [slot put].
    destruct (filter_check fmb (f2 s) (n mod 2 ^ 64) b). repeat split; auto; nia.
  - (* single turnover *)
    exists (mk (p1s s + L) (f2 s) empty_filter), true. cbn [slot put p1s f1 f2].
    destruct (filter_check fmb empty_filter (n mod 2 ^ 64) b). repeat split; auto; try nia.
    intros A HI fp e H. cbn [p1s f1 f2].
    destruct (HI fp e H) as [H1|[[H1 H2]|[H1 H2]]]; [left; lia|left; lia|].
    right; left. split; [lia|exact H2].
  - (* both filters turn over *)
    exists (mk (t + L) empty_filter empty_filter), false. cbn [slot put p1s f1 f2].
    destruct (filter_check fmb empty_filter (n mod 2 ^ 64) b). repeat split; auto; try nia.
    intros A HI fp e H. cbn [p1s f1 f2]. destruct (HI fp e H) as [H1|[[H1 H2]|[H1 H2]]]; left; nia.
Qed.

Lemma slot_check_inv fmb L s A (two : bool) fp e b :
  Inv L s A -> (let lo := if two then p1s s + L else p1s s in lo <= e < lo + L) ->
  Inv L (put two s (fst (filter_check fmb (slot two s) fp b)))
        (if snd (filter_check fmb (slot two s) fp b) then (fp, e) :: A else A).
Proof.
  intros HI He. destruct (filter_check_mem fmb (slot two s) fp b) as [Hin Hkeep].
  assert (Hold : Inv L (put two s (fst (filter_check fmb (slot two s) fp b))) A).
  { intros fp0 e0 H0. destruct (HI fp0 e0 H0) as [H1|[[H1 H2]|[H1 H2]]];
      destruct two; cbn [put slot p1s f1 f2] in *; auto. }
  destruct (snd (filter_check fmb (slot two s) fp b)); [|exact Hold].
  intros fp0 e0 [H0|H0]; [|apply Hold; exact H0]. inversion H0; subst fp0 e0.
  destruct two; cbn [put slot p1s f1 f2] in *; [right; right|right; left];
    (split; [lia|exact Hin]).
Qed.

Lemma check_preserves_inv fmb L s A n t fp s' r :
  0 <= L -> Inv L s A -> check fmb s n t L fp = (s', r) ->
  Inv L s' (if r then (n mod 2 ^ 64, t + L) :: A else A).
Proof.
  intros HL HI HC.
  destruct (check_cases fmb s n t L fp HL) as [Heq|(s0 & two & Htr & _ & He & Heq)];
    rewrite Heq in HC; injection HC as <- <-; [exact HI|].
  apply slot_check_inv; [apply Htr, HI|exact He].
Qed.

Lemma inv_rejects_replay fmb L s A n t fp :
  0 <= L -> Inv L s A -> In (n mod 2 ^ 64, t + L) A -> snd (check fmb s n t L fp) = false.
Proof.
  intros HL HI HA.
  destruct (check_cases fmb s n t L fp HL) as [->|(s0 & two & Htr & _ & He & ->)];
    [reflexivity|].
  cbn [snd]. apply filter_check_rejects_member.
  destruct (Htr A HI _ _ HA) as [H1|[[H1 H2]|[H1 H2]]]; destruct two; cbn [slot] in *;
    try lia; assumption.
Qed.

(** [period_1_start] never moves backwards. *)
Lemma check_p1s_mono fmb L s n t fp s' r :
  0 < L -> check fmb s n t L fp = (s', r) -> p1s s <= p1s s'.
Proof.
  intros HL HC.
  destruct (check_cases fmb s n t L fp (Z.lt_le_incl _ _ HL)) as [Heq|(s0 & two & _ & Hp & _ & Heq)];
    rewrite Heq in HC; injection HC as <- _; [lia|].
  destruct two; exact Hp.
Qed.

(** one presentation: nonce, issue time, and the false-positive oracle value for this call *)
Definition call := (Z * Z * bool)%type.

Fixpoint exec (fmb L : Z) (s : BloomLog.t) (h : list call) : BloomLog.t * list bool :=
  match h with
  | [] => (s, [])
  | (n, i, fp) :: h' =>
      let '(s', r) := check fmb s n i L fp in
      let '(s'', rs) := exec fmb L s' h' in (s'', r :: rs)
  end.

Fixpoint accepted_pairs (L : Z) (h : list call) (rs : list bool) (A : list (Z * Z)) : list (Z * Z) :=
  match h, rs with
  | (n, i, _) :: h', r :: rs' =>
      accepted_pairs L h' rs' (if r then (n mod 2 ^ 64, i + L) :: A else A)
  | _, _ => A
  end.

Lemma exec_preserves_inv fmb L :
  0 <= L -> forall h s A s' rs,
  Inv L s A -> exec fmb L s h = (s', rs) -> Inv L s' (accepted_pairs L h rs A).
Proof.
  intros HL h. induction h as [|[[n0 t0] b0] h' IH]; intros s A s' rs HI HE.
  - cbn [exec] in HE. inversion HE; subst. exact HI.
  - cbn [exec] in HE.
    destruct (check fmb s n0 t0 L b0) as [s1 r] eqn:C.
    destruct (exec fmb L s1 h') as [s2 rs'] eqn:E.
    inversion HE; subst s' rs. cbn [accepted_pairs].
    apply (IH s1 _ s2 rs'); [|exact E].
    exact (check_preserves_inv _ _ _ _ _ _ _ _ _ HL HI C).
Qed.

Theorem bloom_inv_reachable fmb L h s' rs :
  0 < L -> exec fmb L init h = (s', rs) -> Inv L s' (accepted_pairs L h rs []).
Proof. intros HL HE. exact (exec_preserves_inv fmb L (Z.lt_le_incl _ _ HL) h init [] s' rs (inv_init L) HE). Qed.

Lemma exec_length fmb L h : forall s s' rs, exec fmb L s h = (s', rs) -> length rs = length h.
Proof.
  induction h as [|[[n0 t0] b0] h' IH]; intros s s' rs HE; cbn [exec] in HE.
  - inversion HE; reflexivity.
  - destruct (check fmb s n0 t0 L b0) as [s1 r].
    destruct (exec fmb L s1 h') as [s2 rs'] eqn:E.
    inversion HE; subst. cbn [length]. f_equal. exact (IH _ _ _ E).
Qed.

Lemma exec_rejects_known fmb L :
  0 <= L -> forall h s A s' rs,
  Inv L s A -> exec fmb L s h = (s', rs) ->
  forall j n t fj, nth_error h j = Some (n, t, fj) ->
    In (n mod 2 ^ 64, t + L) A \/
    (exists i n' fi, (i < j)%nat /\ nth_error h i = Some (n', t, fi) /\
                     n' mod 2 ^ 64 = n mod 2 ^ 64 /\ nth_error rs i = Some true) ->
    nth_error rs j = Some false.
Proof.
  intros HL h. induction h as [|[[n0 t0] b0] h' IH]; intros s A s' rs HI HE j n t fj Hj HA.
  - destruct j; discriminate Hj.
  - cbn [exec] in HE.
    destruct (check fmb s n0 t0 L b0) as [s1 r] eqn:C.
    destruct (exec fmb L s1 h') as [s2 rs'] eqn:E.
    inversion HE; subst s' rs. clear HE.
    destruct j as [|j']; cbn [nth_error] in Hj |- *.
    + inversion Hj; subst n0 t0 b0. destruct HA as [HA|(i & _ & _ & Hi & _)]; [|lia].
      pose proof (inv_rejects_replay fmb L s A n t fj HL HI HA) as R.
      rewrite C in R. cbn [snd] in R. rewrite R. reflexivity.
    + apply (IH s1 _ s2 rs' (check_preserves_inv _ _ _ _ _ _ _ _ _ HL HI C) E j' n t fj Hj).
      destruct HA as [HA|(i & n' & fi & Hij & Hi & Hfp & Hri)].
      * left. destruct r; [right|]; exact HA.
      * destruct i as [|i']; cbn [nth_error] in Hi, Hri.
        -- left. inversion Hi; subst n0 t0 b0. inversion Hri; subst r. left. rewrite Hfp. reflexivity.
        -- right. exists i', n', fi. repeat split; try assumption. lia.
Qed.

(** Fingerprint-level single use: two presentations with the same issue time whose nonces agree
    modulo [2 ^ 64] are never both accepted. *)
Theorem bloom_single_use_fp : forall fmb L h s' rs,
  0 < L ->
  exec fmb L init h = (s', rs) ->
  forall i j n n' t fi fj,
    (i < j)%nat ->
    nth_error h i = Some (n, t, fi) -> nth_error h j = Some (n', t, fj) ->
    n mod 2 ^ 64 = n' mod 2 ^ 64 ->
    nth_error rs i = Some true -> nth_error rs j = Some false.
Proof.
  intros fmb L h s' rs HL HE i j n n' t fi fj Hij Hi Hj Hfp Hri.
  apply (exec_rejects_known fmb L (Z.lt_le_incl _ _ HL) h init [] s' rs (inv_init L) HE j n' t fj Hj).
  right. exists i, n, fi. repeat split; assumption.
Qed.

(** No (nonce, issued) pair is accepted twice. *)
Theorem bloom_single_use : forall fmb L h s' rs,
  0 < L ->
  exec fmb L init h = (s', rs) ->
  forall i j n t fi fj,
    (i < j)%nat ->
    nth_error h i = Some (n, t, fi) -> nth_error h j = Some (n, t, fj) ->
    nth_error rs i = Some true -> nth_error rs j = Some false.
Proof.
  intros fmb L h s' rs HL HE i j n t fi fj Hij Hi Hj Hri.
  exact (bloom_single_use_fp fmb L h s' rs HL HE i j n n t fi fj Hij Hi Hj eq_refl Hri).
Qed.

(** A zero lifetime is always rejected and leaves the log unchanged. *)
Theorem bloom_zero_lifetime_rejects : forall fmb s n t fp, check fmb s n t 0 fp = (s, false).
Proof. intros. reflexivity. Qed.

(** While both filters are exact sets the false-positive oracle is irrelevant. *)
Theorem bloom_set_mode_exact : forall fmb s n t L,
  is_bloom (f1 s) = false -> is_bloom (f2 s) = false ->
  check fmb s n t L true = check fmb s n t L false.
Proof.
  intros fmb s n t L H1 H2. unfold check. cbv zeta.
  rewrite (filter_check_set_exact fmb (f1 s) _ H1).
  rewrite (filter_check_set_exact fmb (f2 s) _ H2).
  rewrite (filter_check_set_exact fmb empty_filter _ eq_refl).
  reflexivity.
Qed.

(** L = 10, [fmb = 0] (every filter converts to Bloom on its first insertion).
    1. (1, 0): expiry 10, period 2: accepted.            2. replay: rejected.
    3. (2, 12): expiry 22, SINGLE TURNOVER (p1s = 10): accepted.
    4. replay of (1, 0) after the turnover (now in filter_1): rejected.
    5. replay of (2, 12): rejected.
    6. (3, 100): expiry 110, BOTH filters turn over (p1s = 110): accepted.   7. replay: rejected.
    8. (1, 0) again: expired, rejected.
    9. (4, 100) with a Bloom false positive: rejected.   10. (5, 100), no false positive: accepted.
    11. (5 + 2^64, 100): same fingerprint as 10: rejected. *)
Example bloom_example :
  exec 0 10 init
    [(1, 0, false); (1, 0, false); (2, 12, false); (1, 0, false); (2, 12, false);
     (3, 100, false); (3, 100, false); (1, 0, false); (4, 100, true); (5, 100, false);
     (5 + 2 ^ 64, 100, false)]
  = (mk 110 (mkF true [5; 4; 3]) empty_filter,
     [true; false; true; false; false; true; false; false; false; true; false]).
Proof. vm_compute. reflexivity. Qed.

(** Same history with a large [fmb]: everything stays in Set representation, and the oracle value
    [true] at call 9 is ignored ([bloom_set_mode_exact]). *)
Example bloom_example_set :
  snd (exec 1000 10 init
    [(1, 0, false); (1, 0, false); (2, 12, false); (1, 0, false); (2, 12, false);
     (3, 100, false); (3, 100, false); (1, 0, false); (4, 100, true); (5, 100, false)])
  = [true; false; true; false; false; true; false; false; true; true].
Proof. vm_compute. reflexivity. Qed.

(** The invariant is non-trivially inhabited: the state after the single turnover above, with
    both accepted pairs still tracked (one in each filter). *)
Example bloom_inv_example :
  Inv 10 (mk 10 (mkF true [1]) (mkF true [2])) [(2, 22); (1, 10)].
Proof.
  intros fp e [H | [H | []]]; inversion H; subst; cbn [p1s f1 f2 elems].
  - right; right. split; [lia | reflexivity].
  - right; left. split; [lia | reflexivity].
Qed.

Print Assumptions bloom_single_use.
Print Assumptions bloom_single_use_fp.
Print Assumptions check_preserves_inv.
Print Assumptions inv_rejects_replay.
