(** C20: time-translation equivariance of the time-carrying component models:
    step (shift d s) (shift d op) = shift d (step s op) for all states, ops and shifts. It holds
    because every use of an instant is a comparison or a difference of two instants, or instant +
    duration. Models without instants (AckFrequency: durations only) have nothing to shift. *)
From QV Require Import Lib.Tac Lib.Corr.
From QV Require Model.PendingAcks Model.StatelessReset Model.BloomLog Model.CidState Model.Mtud.
From QV Require Proofs.MtudProofs.
Open Scope Z_scope.

Definition shift_o (d : Z) (o : option Z) : option Z :=
  match o with Some t => Some (t + d) | None => None end.

(** an instant + duration is first brought to the form [_ + d] by [Z.add_shuffle0] *)
Lemma ltb_shift a b d : (a + d <? b + d) = (a <? b).
Proof. lia. Qed.
Lemma eqb_shift a b d : (a + d =? b + d) = (a =? b).
Proof. lia. Qed.
Lemma sub_shift a b d : a + d - (b + d) = a - b.
Proof. lia. Qed.

Section Lift.
  Variables (S Op Out : Type).
  Variable step : S -> Op -> option (S * Out).
  Variables (sh_s : S -> S) (sh_op : Op -> Op) (sh_out : Out -> Out).
  Hypothesis Hstep : forall s op,
    step (sh_s s) (sh_op op)
    = match step s op with Some (s', o) => Some (sh_s s', sh_out o) | None => None end.

  Fixpoint run_seq (s : S) (l : list Op) : option (S * list Out) :=
    match l with
    | [] => Some (s, [])
    | op :: r =>
        match step s op with
        | None => None
        | Some (s', o) =>
            match run_seq s' r with
            | None => None
            | Some (s'', os) => Some (s'', o :: os)
            end
        end
    end.

  Lemma run_seq_equivariant l : forall s,
    run_seq (sh_s s) (map sh_op l)
    = match run_seq s l with Some (s', os) => Some (sh_s s', map sh_out os) | None => None end.
  Proof.
    induction l as [|op r IH]; intro s; cbn [map run_seq]; [reflexivity|].
    rewrite Hstep. destruct (step s op) as [[s' o]|]; [|reflexivity].
    rewrite IH. destruct (run_seq s' r) as [[s'' os]|]; reflexivity.
  Qed.
End Lift.

(** * PendingAcks: receive time of the largest packet; [ack_delay] is a difference (a duration) *)
Module PA.
  Import PendingAcks.
  Definition shift_s (d : Z) (s : t) : t :=
    mk (ranges s) (match largest s with Some (pn, r) => Some (pn, r + d) | None => None end).
  Definition shift_op (d : Z) (o : op) : op :=
    match o with
    | InsertOne p now => InsertOne p (now + d)
    | AckDelay now => AckDelay (now + d)
    | o => o
    end.

  (** outputs (range summary and the ack delay) carry no instant: unchanged *)
  Theorem shift_equivariant M d s o :
    step M (shift_s d s) (shift_op d o)
    = match step M s o with Some (s', out) => Some (shift_s d s', out) | None => None end.
  Proof.
    destruct s as [rg lg]. destruct o as [p now|m|now|]; cbn [step shift_op].
    - unfold insert_one, shift_s; cbn [ranges largest].
      destruct (U64_MAX <=? p); [reflexivity|]. cbn [ranges largest summary].
      destruct lg as [[pn r]|]; cbn [ranges largest]; [destruct (pn <? p)|]; reflexivity.
    - unfold subtract_below, shift_s; cbn [ranges largest].
      destruct (U64_MAX <=? m); reflexivity.
    - unfold shift_s, ack_delay, summary; cbn [ranges largest].
      destruct lg as [[pn r]|]; cbn [ranges largest]; [|reflexivity].
      rewrite sub_shift. reflexivity.
    - reflexivity.
  Qed.
End PA.

(** * StatelessReset: time of the last reset sent; the rate limit compares [now] with last + interval *)
Module SR.
  Import StatelessReset.
  Definition shift_s (d : Z) (s : st) : st := mk (has_server s) (interval s) (shift_o d (last s)).

  Lemma decide_shift d s now len : decide (shift_s d s) (now + d) len = decide s now len.
  Proof.
    unfold decide, shift_s; cbn [last interval]. destruct (last s) as [l|]; cbn [shift_o]; [|reflexivity].
    rewrite (Z.add_shuffle0 l d), ltb_shift. reflexivity.
  Qed.

  Theorem shift_equivariant d s now len hint :
    stateless_reset (shift_s d s) (now + d) len hint
    = match stateless_reset s now len hint with
      | Some (s', r) => Some (shift_s d s', r) | None => None end.
  Proof.
    unfold stateless_reset. rewrite decide_shift.
    destruct (decide s now len); try reflexivity.
    destruct (size_ok len hint); reflexivity.
  Qed.

  (** the datagram handler: outputs (sizes, counters) carry no instant *)
  Theorem handle_equivariant d s kind now len hint :
    handle (shift_s d s) kind (now + d) len hint
    = match handle s kind now len hint with
      | Some (s', o) => Some (shift_s d s', o) | None => None end.
  Proof.
    unfold handle. destruct (kind =? 1).
    - destruct (len <? 1 + CID_LEN); [reflexivity|].
      rewrite shift_equivariant. destruct (stateless_reset s now len hint) as [[s' r]|]; reflexivity.
    - destruct (kind =? 2); [|reflexivity].
      cbn [shift_s has_server]. destruct (has_server s).
      + destruct (len <? Constants.MIN_INITIAL_SIZE); reflexivity.
      + rewrite shift_equivariant. destruct (stateless_reset s now len hint) as [[s' r]|]; reflexivity.
  Qed.
End SR.

(** * BloomLog: start of period 1 (a SystemTime); expiry = issued + lifetime; the period index
    is the difference (expiry - period start) / lifetime.  The state [init] holds the Unix epoch
    as period start — an absolute origin supplied by the TimeSource, shifted like any instant. *)
Module BL.
  Import BloomLog.
  Definition shift_s (d : Z) (s : t) : t := mk (p1s s + d) (f1 s) (f2 s).

  Theorem shift_equivariant fmb d s nonce issued lifetime fpr :
    check fmb (shift_s d s) nonce (issued + d) lifetime fpr
    = (shift_s d (fst (check fmb s nonce issued lifetime fpr)),
       snd (check fmb s nonce issued lifetime fpr)).
  Proof.
    unfold check, shift_s; cbn [p1s f1 f2].
    destruct (lifetime =? 0); [reflexivity|].
    rewrite (Z.add_shuffle0 issued d), ltb_shift, sub_shift.
    destruct (issued + lifetime <? p1s s); [reflexivity|].
    destruct ((issued + lifetime - p1s s) / lifetime =? 0).
    { destruct (filter_check fmb (f1 s) (nonce mod 2 ^ 64) fpr); reflexivity. }
    destruct ((issued + lifetime - p1s s) / lifetime =? 1).
    { destruct (filter_check fmb (f2 s) (nonce mod 2 ^ 64) fpr); reflexivity. }
    destruct ((issued + lifetime - p1s s) / lifetime =? 2).
    { destruct (filter_check fmb empty_filter (nonce mod 2 ^ 64) fpr); cbn [fst snd p1s f1 f2].
      rewrite (Z.add_shuffle0 (p1s s) d). reflexivity. }
    destruct (filter_check fmb empty_filter (nonce mod 2 ^ 64) fpr); reflexivity.
  Qed.
End BL.

(** * CidState: expiry instants of issued CID batches ([now + lifetime]); batches issued at the same
    instant are merged by comparing expiries; the next timeout is the head's expiry. *)
Module CS.
  Import CidState.
  Definition sh_e (d : Z) (x : Z * Z) : Z * Z := (fst x, snd x + d).
  Definition shift_q (d : Z) (q : list (Z * Z)) : list (Z * Z) := map (sh_e d) q.
  Definition shift_s (d : Z) (s : t) : t :=
    mk (shift_q d (ts s)) (issued s) (active s) (prev s) (rseq s) (cid_len s) (lifetime s).
  Definition shift_op (d : Z) (o : op) : op :=
    match o with
    | New cl lt now iss => New cl lt (now + d) iss
    | Issue n now => Issue n (now + d)
    | o => o
    end.
  Definition next_timeout_o (s : t) : option Z :=
    match ts s with [] => None | (_, e) :: _ => Some e end.
  Definition optz (o : option Z) : Z := match o with Some x => x | None => -1 end.

  Lemma next_timeout_enc s : next_timeout s = optz (next_timeout_o s).
  Proof. unfold next_timeout, next_timeout_o. destruct (ts s) as [|[a e] r]; reflexivity. Qed.

  Lemma next_timeout_shift d s : next_timeout_o (shift_s d s) = shift_o d (next_timeout_o s).
  Proof. unfold next_timeout_o, shift_s; cbn [ts]. destruct (ts s) as [|[a e] r]; reflexivity. Qed.

  Lemma last_shift d q x y : q <> [] -> last (shift_q d q) x = sh_e d (last q y).
  Proof.
    induction q as [|a r IH]; intro Hn; [congruence|].
    destruct r as [|b r']; [reflexivity|].
    change (last (shift_q d (a :: b :: r')) x) with (last (shift_q d (b :: r')) x).
    change (last (a :: b :: r') y) with (last (b :: r') y).
    apply IH. discriminate.
  Qed.

  Lemma set_last_shift d q v : set_last (shift_q d q) (sh_e d v) = shift_q d (set_last q v).
  Proof.
    induction q as [|a r IH]; [reflexivity|].
    destruct r as [|b r']; [reflexivity|].
    change (set_last (shift_q d (a :: b :: r')) (sh_e d v))
      with (sh_e d a :: set_last (shift_q d (b :: r')) (sh_e d v)).
    rewrite IH. reflexivity.
  Qed.

  Lemma track_shift d lt q seq now :
    track lt (shift_q d q) seq (now + d)
    = match track lt q seq now with Some q' => Some (shift_q d q') | None => None end.
  Proof.
    unfold track. destruct lt as [dd|]; [|reflexivity]. rewrite (Z.add_shuffle0 now d).
    change (seq, now + dd + d) with (sh_e d (seq, now + dd)).
    destruct q as [|a r]; [reflexivity|].
    rewrite (last_shift d (a :: r) (-1, -1) (-1, -1)) by discriminate.
    destruct (last (a :: r) (-1, -1)) as [lseq lts]. cbn [sh_e fst snd].
    unfold shift_q at 1. rewrite map_length, eqb_shift.
    destruct (negb (length (a :: r) =? 0)%nat && (lts =? now + dd)).
    - destruct (lseq <? seq); [|reflexivity]. rewrite set_last_shift. reflexivity.
    - unfold shift_q. rewrite map_app. reflexivity.
  Qed.

  Lemma track_all_shift d lt l : forall q now,
    track_all lt (shift_q d q) l (now + d)
    = match track_all lt q l now with Some q' => Some (shift_q d q') | None => None end.
  Proof.
    induction l as [|s r IH]; intros q now; cbn [track_all]; [reflexivity|].
    rewrite track_shift. destruct (track lt q s now) as [q'|]; [apply IH | reflexivity].
  Qed.

  (** replace the next-timeout field (index 6 of an observation) *)
  Definition set_nt (v : Z) (out : list Z) : list Z :=
    match out with
    | a :: b :: c :: e :: f :: g :: _ :: r => a :: b :: c :: e :: f :: g :: v :: r
    | _ => out
    end.

  Lemma snapshot_shift d s b c :
    b :: c :: snapshot (shift_s d s)
    = set_nt (optz (shift_o d (next_timeout_o s))) (b :: c :: snapshot s).
  Proof.
    unfold snapshot. cbn [app set_nt]. rewrite next_timeout_enc, next_timeout_shift.
    cbn [shift_s issued prev rseq ts active]. unfold shift_q. rewrite map_length. reflexivity.
  Qed.

  Lemma new_shift d cl lt now iss :
    new cl lt (now + d) iss
    = match new cl lt now iss with Some s' => Some (shift_s d s') | None => None end.
  Proof.
    unfold new. change (@nil (Z * Z)) with (shift_q d []) at 1. rewrite track_all_shift.
    destruct (track_all lt [] (seqs 0 (Z.to_nat iss)) now); reflexivity.
  Qed.

  Lemma new_cids_shift d s n now :
    new_cids (shift_s d s) n (now + d)
    = match new_cids s n now with Some s' => Some (shift_s d s') | None => None end.
  Proof.
    unfold new_cids. cbn [shift_s ts issued active prev rseq cid_len lifetime].
    destruct (n <=? 0); [reflexivity|]. rewrite track_shift.
    destruct (track (lifetime s) (ts s) (issued s + n - 1) now); reflexivity.
  Qed.

  Lemma on_cid_retirement_shift d s seq limit :
    on_cid_retirement (shift_s d s) seq limit
    = (shift_s d (fst (on_cid_retirement s seq limit)), snd (on_cid_retirement s seq limit)).
  Proof.
    unfold on_cid_retirement. cbn [shift_s ts issued active prev rseq cid_len lifetime].
    destruct (cid_len s =? 0); [reflexivity|]. destruct (issued s <? seq); reflexivity.
  Qed.

  Lemma on_cid_timeout_shift d s :
    on_cid_timeout (shift_s d s) = (shift_s d (fst (on_cid_timeout s)), snd (on_cid_timeout s)).
  Proof.
    unfold on_cid_timeout. cbn [shift_s ts issued active prev rseq cid_len lifetime].
    destruct (ts s) as [|[a e] r]; reflexivity.
  Qed.

  (** the only output field that changes is the next timeout, which moves by [d] *)
  Theorem shift_equivariant d s o :
    step (shift_s d s) (shift_op d o)
    = match step s o with
      | Some (s', out) => Some (shift_s d s', set_nt (optz (shift_o d (next_timeout_o s'))) out)
      | None => None
      end.
  Proof.
    destruct o as [cl lt now iss|n now|seq limit| |]; cbn [step shift_op].
    - rewrite new_shift. destruct (new cl lt now iss) as [s'|]; [|reflexivity].
      rewrite snapshot_shift. reflexivity.
    - rewrite new_cids_shift. destruct (new_cids s n now) as [s'|]; [|reflexivity].
      rewrite snapshot_shift. reflexivity.
    - rewrite on_cid_retirement_shift. destruct (on_cid_retirement s seq limit) as [s' [b|c]];
        cbn [fst snd]; rewrite snapshot_shift; reflexivity.
    - rewrite on_cid_timeout_shift. destruct (on_cid_timeout s) as [s' b]. cbn [fst snd].
      rewrite snapshot_shift. reflexivity.
    - rewrite snapshot_shift. reflexivity.
  Qed.
End CS.

(** * Mtud: the instant at which the next probing round may start ([Complete t]): set to
    [now + interval] / [now + cooldown], compared with [now] in [poll_transmit]. *)
Module MT.
  Import Mtud.
  Definition shift_phase (d : Z) (p : Phase) : Phase :=
    match p with Complete t => Complete (t + d) | p => p end.
  Definition shift_e (d : Z) (e : Enabled) : Enabled :=
    mkEnabled (shift_phase d (phase e)) (peer_max e) (config e).
  Definition shift_st (d : Z) (o : option Enabled) : option Enabled :=
    match o with Some e => Some (shift_e d e) | None => None end.
  Definition shift_s (d : Z) (m : Mtud) : Mtud := mkMtud (cur m) (shift_st d (st m)) (bhd m).
  Definition shift_op (d : Z) (o : Op) : Op :=
    match o with
    | OPoll now pn => OPoll (now + d) pn
    | OBlackHole now => OBlackHole (now + d)
    | o => o
    end.

  Lemma set_phase_shift d e p : set_phase (shift_e d e) (shift_phase d p) = shift_e d (set_phase e p).
  Proof. reflexivity. Qed.

  Lemma poll_searching_shift MPR d e s now pn :
    poll_searching MPR (shift_e d e) s (now + d) pn
    = match poll_searching MPR e s now pn with
      | Some (e', r) => Some (shift_e d e', r) | None => None end.
  Proof.
    unfold poll_searching. destruct (in_flight s); [reflexivity|].
    destruct ((0 <? lost_count s) && (lost_count s <? MPR)); [reflexivity|].
    match goal with |- context [next_mtu_to_probe ?a ?b] => destruct (next_mtu_to_probe a b) as [[s2 [p|]]|] end;
      try reflexivity.
    cbn [shift_e config]. rewrite (Z.add_shuffle0 now d). reflexivity.
  Qed.

  Lemma enabled_poll_shift MPR d e now current pn :
    enabled_poll MPR (shift_e d e) (now + d) current pn
    = match enabled_poll MPR e now current pn with
      | Some (e', r) => Some (shift_e d e', r) | None => None end.
  Proof.
    unfold enabled_poll. cbn [shift_e phase peer_max config].
    destruct (phase e) as [|s|t]; cbn [shift_phase].
    - apply poll_searching_shift.
    - apply poll_searching_shift.
    - rewrite ltb_shift. destruct (now <? t); [|apply poll_searching_shift].
      destruct e as [ph pm cf]; reflexivity.
  Qed.

  Lemma probe_acked_shift d e pn :
    enabled_on_probe_acked (shift_e d e) pn
    = match enabled_on_probe_acked e pn with Some (e', r) => Some (shift_e d e', r) | None => None end.
  Proof.
    unfold enabled_on_probe_acked. cbn [shift_e phase].
    destruct (phase e) as [|s|t]; cbn [shift_phase]; try reflexivity.
    destruct (in_flight s) as [f|]; [|reflexivity]. destruct (f =? pn); reflexivity.
  Qed.

  Lemma probe_lost_shift d e : enabled_on_probe_lost (shift_e d e) = shift_e d (enabled_on_probe_lost e).
  Proof.
    unfold enabled_on_probe_lost. cbn [shift_e phase].
    destruct (phase e) as [|s|t]; cbn [shift_phase]; reflexivity.
  Qed.

  Lemma on_peer_max_shift d m v :
    on_peer_max (shift_s d m) v
    = match on_peer_max m v with Some m' => Some (shift_s d m') | None => None end.
  Proof.
    unfold on_peer_max. cbn [shift_s cur st bhd]. destruct (st m) as [e|]; cbn [shift_st shift_e phase]; [|reflexivity].
    destruct (phase e) as [|s|t]; reflexivity.
  Qed.

  (** return codes and probe sizes carry no instant: unchanged *)
  Theorem shift_equivariant MPR BHT fx d m o :
    step MPR BHT fx (shift_s d m) (shift_op d o)
    = match step MPR BHT fx m o with Some (m', r) => Some (shift_s d m', r) | None => None end.
  Proof.
    destruct o as [i mn p en c|c mn|v|now pn|sp pn len| |pn len|now]; cbn [step shift_op].
    - (* states produced by [new] / [reset] are in the [Initial] phase and hold no instant *)
      rewrite MtudProofs.mtud_new_eq. destruct en; [destruct (i <? mn)|]; reflexivity.
    - rewrite !MtudProofs.mtud_reset_eq. cbn [shift_s st]. destruct (st m); reflexivity.
    - rewrite on_peer_max_shift. destruct (on_peer_max m v); reflexivity.
    - cbn [shift_s cur st]. destruct (st m) as [e|]; cbn [shift_st]; [|reflexivity].
      rewrite enabled_poll_shift. destruct (enabled_poll MPR e now (cur m) pn) as [[e' r]|]; reflexivity.
    - destruct (negb (is_data sp)); [reflexivity|].
      cbn [shift_s st]. destruct (st m) as [e|]; cbn [shift_st]; [|reflexivity].
      rewrite probe_acked_shift. destruct (enabled_on_probe_acked e pn) as [[e' r]|]; reflexivity.
    - cbn [shift_s st]. destruct (st m) as [e|]; cbn [shift_st]; [|reflexivity].
      rewrite probe_lost_shift. reflexivity.
    - cbn [shift_s bhd]. destruct (bhd_on_non_probe_lost BHT (bhd m) pn len); reflexivity.
    - cbn [shift_s cur st bhd]. destruct (bhd_black_hole_detected BHT (bhd m)) as [b det].
      destruct det; [|reflexivity]. destruct (st m) as [e|]; cbn [shift_st]; [|reflexivity].
      cbn [shift_e config]. rewrite (Z.add_shuffle0 now d). reflexivity.
  Qed.
End MT.
