(** Model/DatagramState.v (C16): what each queue operation does, and the invariant [GInv] of all
    runs: exact byte counts, and each queue, after what it already handed on, is a subsequence
    of what was accepted. *)
From QV Require Import Lib.Tac Lib.Bytes Lib.Corr gen.Constants Model.Varint Model.DatagramState.
From QV Require Import Proofs.BytesProofs.
From QV Require Proofs.VarintProofs.
Open Scope Z_scope.

Inductive subseq {A : Type} : list A -> list A -> Prop :=
| ss_nil : subseq [] []
| ss_skip x l1 l2 : subseq l1 l2 -> subseq l1 (x :: l2)
| ss_take x l1 l2 : subseq l1 l2 -> subseq (x :: l1) (x :: l2).

Lemma subseq_refl {A} (l : list A) : subseq l l.
Proof. induction l; [constructor | apply ss_take; auto]. Qed.

Lemma subseq_nil_l {A} (l : list A) : subseq [] l.
Proof. induction l; constructor; auto. Qed.

Lemma subseq_trans {A} (a b c : list A) : subseq a b -> subseq b c -> subseq a c.
Proof.
  intros Hab Hbc. revert a Hab. induction Hbc; intros a Hab.
  - inversion Hab; subst. constructor.
  - apply ss_skip. auto.
  - inversion Hab; subst.
    + apply ss_skip. auto.
    + apply ss_take. auto.
Qed.

Lemma subseq_app {A} (a b c d : list A) : subseq a b -> subseq c d -> subseq (a ++ c) (b ++ d).
Proof.
  intros H1 H2. induction H1; cbn [app]; auto; [apply ss_skip | apply ss_take]; auto.
Qed.

Lemma subseq_suffix {A} (pre k : list A) : subseq k (pre ++ k).
Proof. induction pre; cbn [app]; [apply subseq_refl | apply ss_skip; auto]. Qed.

Lemma subseq_filter {A} (f : A -> bool) (l : list A) : subseq (filter f l) l.
Proof. induction l; cbn [filter]; [constructor | destruct (f a); [apply ss_take | apply ss_skip]; auto]. Qed.

Lemma subseq_evict {A} (a pre kept L : list A) d :
  subseq (a ++ pre ++ kept) L -> subseq (a ++ kept ++ [d]) (L ++ [d]).
Proof.
  intros H. rewrite app_assoc. apply subseq_app; [|apply subseq_refl].
  eapply subseq_trans; [|exact H]. apply subseq_app; [apply subseq_refl | apply subseq_suffix].
Qed.

Lemma sum_len_cons d l : sum_len (d :: l) = zlen d + sum_len l.
Proof. reflexivity. Qed.

Lemma sum_len_nonneg l : 0 <= sum_len l.
Proof.
  induction l as [|d l IH]; [reflexivity|]. rewrite sum_len_cons. pose proof (zlen_nonneg d). lia.
Qed.

Lemma sum_len_pop d r : (sum_len (d :: r) <? zlen d) = false /\ sum_len (d :: r) - zlen d = sum_len r.
Proof. rewrite sum_len_cons. pose proof (sum_len_nonneg r). lia. Qed.

Lemma sum_len_app a b : sum_len (a ++ b) = sum_len a + sum_len b.
Proof.
  induction a as [|d a IH]; cbn [app]; [reflexivity | rewrite !sum_len_cons, IH; lia].
Qed.

Lemma sum_len_snoc l d : sum_len (l ++ [d]) = sum_len l + zlen d.
Proof. rewrite sum_len_app, sum_len_cons. cbn. lia. Qed.

Lemma sum_len_filter_le f l : sum_len (filter f l) <= sum_len l.
Proof.
  induction l as [|d l IH]; cbn [filter]; [lia|].
  pose proof (zlen_nonneg d). destruct (f d); rewrite !sum_len_cons; lia.
Qed.

Lemma filter_len_le {A} (f : A -> bool) l : (length (filter f l) <= length l)%nat.
Proof. induction l; cbn [filter length]; [lia | destruct (f a); cbn [length]; lia]. Qed.

Definition Inv (s : DState) : Prop :=
  outgoing_total s = sum_len (outgoing s) /\ recv_buffered s = sum_len (incoming s).

(** [loop] is either eviction loop, that of [make_space_for] or the one in [received]. *)
Lemma evict_front (fits : Z -> bool) (loop : list bytes -> Z -> res (list bytes * Z)) :
  loop [] 0 = Ok ([], 0) ->
  (forall d r t, loop (d :: r) t =
     if fits t then Ok (d :: r, t) else if t <? zlen d then Panic else loop r (t - zlen d)) ->
  forall q, exists pre kept,
    loop q (sum_len q) = Ok (kept, sum_len kept) /\ q = pre ++ kept /\
    (fits (sum_len kept) = true \/ kept = []) /\
    (forall p1 d p2, pre = p1 ++ d :: p2 -> fits (sum_len (d :: p2 ++ kept)) = false).
Proof.
  intros Hnil Hcons. induction q as [|d r IH].
  - exists [], []. repeat split; auto.
    intros p1 x p2 H. destruct (app_cons_not_nil _ _ _ H).
  - rewrite Hcons. destruct (fits (sum_len (d :: r))) eqn:E.
    + exists [], (d :: r). repeat split; auto.
      intros p1 x p2 H. destruct (app_cons_not_nil _ _ _ H).
    + destruct (sum_len_pop d r) as [-> ->].
      destruct IH as (pre & kept & H1 & -> & H3 & H4).
      exists (d :: pre), kept. repeat split; auto.
      intros [|y p1] x p2 [= <- ->]; [exact E | exact (H4 p1 x p2 eq_refl)].
Qed.

Lemma make_space_spec out len size :
  exists pre kept,
    make_space out (sum_len out) len size = Ok (kept, sum_len kept) /\
    out = pre ++ kept /\
    (has_space (sum_len kept) len size = true \/ kept = []) /\
    (forall p1 d p2, pre = p1 ++ d :: p2 -> has_space (sum_len (d :: p2 ++ kept)) len size = false).
Proof.
  apply (evict_front (fun t => has_space t len size) (fun q t => make_space q t len size)).
  - cbn [make_space]. destruct (has_space 0 len size); reflexivity.
  - reflexivity.
Qed.

Lemma drop_stale_spec inc len window :
  len <= window ->
  exists pre kept,
    drop_stale inc (sum_len inc) len window = Ok (kept, sum_len kept) /\
    inc = pre ++ kept /\
    len + sum_len kept <= window /\
    (forall p1 d p2, pre = p1 ++ d :: p2 -> window < len + sum_len (d :: p2 ++ kept)).
Proof.
  intros Hw.
  destruct (evict_front (fun t => negb (window <? len + t)) (fun q t => drop_stale q t len window))
    with (q := inc) as (pre & kept & H1 & H2 & H3 & H4); cbn beta in *.
  - cbn [drop_stale]. destruct (window <? len + 0) eqn:E; [lia | reflexivity].
  - intros d r t. cbn [drop_stale]. destruct (window <? len + t); reflexivity.
  - exists pre, kept. repeat split; auto.
    + destruct H3 as [H3 | ->]; [lia | cbn; lia].
    + intros p1 d p2 E. specialize (H4 p1 d p2 E). lia.
Qed.

Lemma retain_small_spec out mp extra :
  0 <= extra ->
  retain_small out (extra + sum_len out) mp =
    Ok (filter (fun d => zlen d <? mp) out, extra + sum_len (filter (fun d => zlen d <? mp) out),
        negb (Nat.eqb (length (filter (fun d => zlen d <? mp) out)) (length out))).
Proof.
  revert extra. induction out as [|d r IH]; intros extra He; [reflexivity|].
  cbn [retain_small filter]. rewrite sum_len_cons.
  pose proof (sum_len_nonneg r). pose proof (zlen_nonneg d).
  destruct (zlen d <? mp).
  - rewrite Z.add_assoc, IH, sum_len_cons, Z.add_assoc by lia. reflexivity.
  - destruct (extra + (zlen d + sum_len r) <? zlen d) eqn:E; [lia|].
    replace (extra + (zlen d + sum_len r) - zlen d) with (extra + sum_len r) by lia.
    rewrite IH by lia. do 2 f_equal. cbn [length]. symmetry.
    apply negb_true_iff, Nat.eqb_neq, Nat.lt_neq, Nat.lt_succ_r, filter_len_le.
Qed.

Definition ctx_ok (c : Ctx) : Prop := overhead c + DATAGRAM_SIZE_BOUND <= mtu c.

Lemma max_size_fits_gen SB c :
  overhead c + SB <= mtu c ->
  match peer_max c with
  | None => max_size_gen SB c = Ok None
  | Some p =>
      exists v, max_size_gen SB c = Ok (Some v) /\ 0 <= v /\
                v + SB + overhead c <= mtu c /\ (SB <= p -> v <= p - SB) /\ (p < SB -> v = 0)
  end.
Proof.
  intros Hok. unfold max_size_gen.
  destruct (mtu c - overhead c - SB <? 0) eqn:E; [lia|].
  destruct (peer_max c) as [p|]; [|reflexivity].
  eexists. split; [reflexivity|]. lia.
Qed.

Lemma max_size_ok c : ctx_ok c -> max_size c = Ok (spec_max_size c).
Proof.
  unfold ctx_ok, max_size, max_size_gen, spec_max_size. intros H.
  destruct (mtu c - overhead c - DATAGRAM_SIZE_BOUND <? 0) eqn:E; [lia|].
  destruct (peer_max c); reflexivity.
Qed.

Lemma has_space_eq total len size :
  size <= USIZE_MAX -> has_space total len size = (total + len <=? size).
Proof. intros H. unfold has_space. destruct (USIZE_MAX <? total + len) eqn:E; lia. Qed.

(** The conjuncts of [send_spec] after its equation, for an exit that queues nothing. *)
Ltac refused s HI :=
  split; [reflexivity|]; split; [exact HI|]; split; [reflexivity|]; split; [discriminate|];
  split; [|exact id]; intros _; split; [reflexivity|]; split; [reflexivity|];
  cbn [send_blocked]; destruct (send_blocked s); reflexivity.

Lemma send_spec c s d drop :
  Inv s -> ctx_ok c -> send_buf c <= USIZE_MAX ->
  exists s' code, send c s d drop = Ok (s', code) /\ Inv s' /\
    code = match recv_buf c with
           | None => S_DISABLED
           | Some _ =>
               match max_size c with
               | Ok (Some mx) =>
                   if Z.min mx (send_buf c) <? zlen d then S_TOOLARGE
                   else if drop || (outgoing_total s + zlen d <=? send_buf c) then S_OK
                   else S_BLOCKED
               | _ => S_UNSUPPORTED
               end
           end /\
    (code = S_OK ->
       exists pre kept, outgoing s = pre ++ kept /\ outgoing s' = kept ++ [d] /\
         (drop = false -> pre = []) /\
         (forall p1 x p2, pre = p1 ++ x :: p2 ->
            has_space (sum_len (x :: p2 ++ kept)) (zlen d) (send_buf c) = false) /\
         incoming s' = incoming s /\ send_blocked s' = send_blocked s) /\
    (code <> S_OK -> outgoing s' = outgoing s /\ incoming s' = incoming s /\
                     send_blocked s' = (send_blocked s || (code =? S_BLOCKED))) /\
    (sum_len (outgoing s) <= send_buf c -> sum_len (outgoing s') <= send_buf c).
Proof.
  intros HI Hc Hsb. pose proof HI as [Ho Hi]. unfold send. rewrite (max_size_ok c Hc).
  destruct (recv_buf c); [|exists s, S_DISABLED; refused s HI].
  destruct (spec_max_size c) as [mx|]; [|exists s, S_UNSUPPORTED; refused s HI].
  destruct (Z.min mx (send_buf c) <? zlen d) eqn:E1; [exists s, S_TOOLARGE; refused s HI|].
  destruct drop; cbn [orb].
  - rewrite Ho.
    destruct (make_space_spec (outgoing s) (zlen d) (send_buf c)) as (pre & kept & -> & H2 & H3 & H4).
    eexists _, S_OK. split; [reflexivity|].
    split; [split; [symmetry; apply sum_len_snoc | exact Hi]|].
    split; [reflexivity|]. split; [|split; [intros H; destruct (H eq_refl)|]]; intros _.
    + exists pre, kept. repeat split; auto. discriminate.
    + cbn [outgoing]. rewrite sum_len_snoc.
      destruct H3 as [H3 | ->]; [rewrite has_space_eq in H3 by exact Hsb | cbn]; lia.
  - rewrite (has_space_eq _ _ _ Hsb).
    destruct (outgoing_total s + zlen d <=? send_buf c) eqn:E2; [|eexists _, S_BLOCKED; refused s HI].
    eexists _, S_OK. split; [reflexivity|].
    split; [split; [rewrite Ho; symmetry; apply sum_len_snoc | exact Hi]|].
    split; [reflexivity|]. split; [|split; [intros H; destruct (H eq_refl)|]]; intros _.
    + exists [], (outgoing s). repeat split; auto.
      intros p1 x p2 H'. destruct (app_cons_not_nil _ _ _ H').
    + cbn [outgoing]. rewrite sum_len_snoc. lia.
Qed.

Lemma receive_rejects s d w :
  (match w with None => True | Some x => x < zlen d end) -> received s d w = Ok (s, None).
Proof.
  intros H. unfold received. destruct w as [x|]; [|reflexivity].
  destruct (x <? zlen d) eqn:E; [reflexivity|lia].
Qed.

Lemma receive_accepts s d x :
  Inv s -> zlen d <= x ->
  exists s' pre kept,
    received s d (Some x) = Ok (s', Some (recv_buffered s =? 0)) /\ Inv s' /\
    outgoing s' = outgoing s /\ incoming s = pre ++ kept /\ incoming s' = kept ++ [d] /\
    recv_buffered s' <= x /\
    (forall p1 y p2, pre = p1 ++ y :: p2 -> x < zlen d + sum_len (y :: p2 ++ kept)).
Proof.
  intros [Ho Hi] Hx. unfold received. destruct (x <? zlen d) eqn:E; [lia|]. rewrite Hi.
  destruct (drop_stale_spec (incoming s) (zlen d) x Hx) as (pre & kept & -> & H2 & H3 & H4).
  eexists _, pre, kept. split; [reflexivity|].
  split; [split; [exact Ho | symmetry; apply sum_len_snoc]|].
  cbn [incoming recv_buffered]. repeat split; auto. lia.
Qed.

Lemma recv_spec s :
  Inv s ->
  match incoming s with
  | [] => recv s = Ok (s, None)
  | d :: r => exists s', recv s = Ok (s', Some d) /\ Inv s' /\ incoming s' = r /\
                         outgoing s' = outgoing s
  end.
Proof.
  intros [Ho Hi]. unfold recv. destruct (incoming s) as [|d r]; [reflexivity|].
  rewrite Hi. destruct (sum_len_pop d r) as [-> ->].
  eexists. repeat split. exact Ho.
Qed.

(** [Datagram::size(true)] agrees with what [encode(true, _)] produces. *)
Lemma frame_size_encode d :
  zlen d < 2 ^ 62 ->
  exists sz enc, frame_size d = Some sz /\ frame_encode d = Some enc /\ zlen enc = sz.
Proof.
  intros H. pose proof (zlen_nonneg d).
  destruct (VarintProofs.varint_size_encode (zlen d)) as (b & n & Hb & Hn & Hl); [lia|].
  unfold frame_size, frame_encode. rewrite Hb, Hn.
  eexists _, _. repeat split.
  unfold zlen in *. cbn [length]. rewrite app_length. lia.
Qed.

Lemma write_spec s bl mx :
  Inv s -> sum_len (outgoing s) < 2 ^ 62 ->
  match outgoing s with
  | [] => write s bl mx = Ok (s, None)
  | d :: r =>
      exists sz enc, frame_size d = Some sz /\ frame_encode d = Some enc /\ zlen enc = sz /\
        if mx <? bl + sz then write s bl mx = Ok (s, None)
        else exists s', write s bl mx = Ok (s', Some enc) /\ Inv s' /\ outgoing s' = r /\
                        incoming s' = incoming s
  end.
Proof.
  intros [Ho Hi] Hb. unfold write. destruct (outgoing s) as [|d r]; [reflexivity|].
  rewrite sum_len_cons in Hb. pose proof (sum_len_nonneg r).
  destruct (frame_size_encode d) as (sz & enc & -> & -> & Hl); [lia|].
  exists sz, enc. repeat split; [exact Hl|].
  destruct (mx <? bl + sz); [reflexivity|].
  rewrite Ho. destruct (sum_len_pop d r) as [-> ->].
  eexists. repeat split. exact Hi.
Qed.

Lemma drop_oversized_spec s mp :
  Inv s ->
  exists s', drop_oversized s mp =
               Ok (s', negb (Nat.eqb (length (outgoing s')) (length (outgoing s)))) /\ Inv s' /\
    outgoing s' = filter (fun d => zlen d <? mp) (outgoing s) /\ incoming s' = incoming s.
Proof.
  intros [Ho Hi]. unfold drop_oversized.
  rewrite Ho, <- (Z.add_0_l (sum_len (outgoing s))), retain_small_spec by lia.
  eexists (mkD _ _ _ _ _). repeat split. exact Hi.
Qed.

(** Ghost history, each in order: payloads accepted by [received], returned by [recv], accepted by
    [send], and framed by [write]. *)
Record Hist := mkH { acc_in : list bytes; delivered : list bytes; acc_out : list bytes; written : list bytes }.
Definition h0 : Hist := mkH [] [] [] [].

Definition hist_step (s : DState) (h : Hist) (op : Op) (code : Z) (payload : list Z) : Hist :=
  match op with
  | OReceived _ d => if code =? 0 then mkH (acc_in h ++ [d]) (delivered h) (acc_out h) (written h) else h
  | ORecv => if code =? 1 then mkH (acc_in h) (delivered h ++ [payload]) (acc_out h) (written h) else h
  | OSend _ d => if code =? S_OK then mkH (acc_in h) (delivered h) (acc_out h ++ [d]) (written h) else h
  | OWrite _ _ =>
      if code =? 1 then
        mkH (acc_in h) (delivered h) (acc_out h) (written h ++ [hd [] (outgoing s)])
      else h
  | _ => h
  end.

Fixpoint exec (c : Ctx) (s : DState) (h : Hist) (ops : list Op) : res (Ctx * DState * Hist) :=
  match ops with
  | [] => Ok (c, s, h)
  | op :: rest =>
      match step (c, s) op with
      | Ok (c', s', (code, payload)) => exec c' s' (hist_step s h op code payload) rest
      | Panic => Panic
      | Hang => Hang
      end
  end.

(** Side condition on the op sequence: the MTU never drops below what one empty packet needs
    (otherwise [max_size] underflows, a documented panic).  That the queued bytes stay below the
    varint range (so that [VarInt::from_u64(len).unwrap()] in [write] cannot fail) is the bound on
    [send_buf] in [run_ok]. *)
Definition op_ok (cl : Z) (sb : Z) (op : Op) : Prop :=
  match op with
  | OSetMtu m => 1 + cl + 4 + TAG_LEN + DATAGRAM_SIZE_BOUND <= m
  | _ => True
  end.

Definition GInv (sb : Z) (s : DState) (h : Hist) : Prop :=
  Inv s /\ sum_len (outgoing s) <= sb /\
  subseq (delivered h ++ incoming s) (acc_in h) /\ subseq (written h ++ outgoing s) (acc_out h).

Lemma GInv_init sb : 0 <= sb -> GInv sb init h0.
Proof. intros H. repeat split; [exact H | constructor | constructor]. Qed.

Definition step_keeps (c : Ctx) (s : DState) (h : Hist) (op : Op) : Prop :=
  exists c' s' code payload,
    step (c, s) op = Ok (c', s', (code, payload)) /\
    GInv (send_buf c') s' (hist_step s h op code payload) /\
    ctx_ok c' /\ send_buf c' = send_buf c /\ cid_len c' = cid_len c.

Section Step.
Variables (c : Ctx) (s : DState) (h : Hist).
Hypotheses (Hc : ctx_ok c) (HG : GInv (send_buf c) s h).

Lemma keeps op s' code payload :
  step (c, s) op = Ok (c, s', (code, payload)) ->
  GInv (send_buf c) s' (hist_step s h op code payload) -> step_keeps c s h op.
Proof. intros E HG'. exists c, s', code, payload. auto. Qed.

Lemma keeps_noop op code payload :
  step (c, s) op = Ok (c, s, (code, payload)) -> hist_step s h op code payload = h ->
  step_keeps c s h op.
Proof. intros E Hh. apply (keeps op s code payload E). rewrite Hh. exact HG. Qed.

(** [noop code payload E]: by [E], the operation changes neither state nor history. *)
Tactic Notation "noop" constr(code) uconstr(payload) constr(E) :=
  apply (keeps_noop _ code payload); [cbn [step]; rewrite E|]; reflexivity.
Ltac recorded :=
  cbn [hist_step]; rewrite Z.eqb_refl; cbn [acc_in delivered acc_out written].

Lemma step_send drop d : send_buf c <= USIZE_MAX -> step_keeps c s h (OSend drop d).
Proof.
  intros Hsb. pose proof HG as (HI & Hb & Hin & Hout).
  destruct (send_spec c s d drop HI Hc Hsb) as (s' & code & E & HI' & _ & Hok & Hno & Hb').
  eapply (keeps _ s' code); [cbn [step]; rewrite E; reflexivity|].
  split; [exact HI'|]. split; [exact (Hb' Hb)|]. cbn [hist_step].
  destruct (Z.eqb_spec code S_OK) as [Hcode|Hcode].
  - destruct (Hok Hcode) as (pre & kept & Ha & Ho' & _ & _ & Hi' & _).
    cbn [acc_in delivered acc_out written]. rewrite Hi', Ho'. split; [exact Hin|].
    rewrite Ha in Hout. eapply subseq_evict; exact Hout.
  - destruct (Hno Hcode) as (Ho' & Hi' & _). rewrite Ho', Hi'. split; assumption.
Qed.

Lemma step_max_size : step_keeps c s h OMaxSize.
Proof.
  pose proof (max_size_ok c Hc) as E. destruct (spec_max_size c) as [v|].
  - noop 0 [v] E.
  - noop 1 [] E.
Qed.

Lemma step_write bl mx : send_buf c < 2 ^ 62 -> step_keeps c s h (OWrite bl mx).
Proof.
  intros Hsb. pose proof HG as (HI & Hb & Hin & Hout).
  pose proof (write_spec s bl mx HI ltac:(lia)) as Hw.
  destruct (outgoing s) as [|d r] eqn:Eo.
  { noop 0 [] Hw. }
  destruct Hw as (sz & enc & _ & _ & _ & Hw). destruct (mx <? bl + sz).
  { noop 0 [] Hw. }
  destruct Hw as (s' & Hw & HI' & Ho' & Hi').
  apply (keeps _ s' 1 enc); [cbn [step]; rewrite Hw; reflexivity|].
  rewrite sum_len_cons in Hb. pose proof (zlen_nonneg d).
  split; [exact HI'|]. rewrite Ho', Hi'. split; [lia|].
  recorded. split; [exact Hin|].
  rewrite Eo, <- app_assoc. exact Hout.
Qed.

Lemma step_received w d : step_keeps c s h (OReceived w d).
Proof.
  assert (Rej : received s d w = Ok (s, None) -> step_keeps c s h (OReceived w d)).
  { intros E. noop 1 [] E. }
  destruct w as [x|]; [destruct (Z.ltb_spec x (zlen d)) as [Hx|Hx]|].
  - apply Rej, receive_rejects, Hx.
  - pose proof HG as (HI & Hb & Hin & Hout).
    destruct (receive_accepts s d x HI Hx) as (s' & pre & kept & E & HI' & Ho' & Ha & Hi' & _).
    eapply (keeps _ s' 0); [cbn [step]; rewrite E; reflexivity|].
    split; [exact HI'|]. rewrite Ho', Hi'. split; [exact Hb|].
    recorded. split; [|exact Hout].
    rewrite Ha in Hin. eapply subseq_evict; exact Hin.
  - apply Rej. reflexivity.
Qed.

Lemma step_recv : step_keeps c s h ORecv.
Proof.
  pose proof HG as (HI & Hb & Hin & Hout). pose proof (recv_spec s HI) as Hr.
  destruct (incoming s) as [|d r] eqn:Ei.
  { noop 0 [] Hr. }
  destruct Hr as (s' & Hr & HI' & Hi' & Ho').
  apply (keeps _ s' 1 d); [cbn [step]; rewrite Hr; reflexivity|].
  split; [exact HI'|]. rewrite Ho', Hi'. split; [exact Hb|].
  recorded. split; [|exact Hout].
  rewrite <- app_assoc. exact Hin.
Qed.

Lemma step_drop_oversized mp : step_keeps c s h (ODropOversized mp).
Proof.
  pose proof HG as (HI & Hb & Hin & Hout).
  destruct (drop_oversized_spec s mp HI) as (s' & E & HI' & Ho' & Hi').
  eapply keeps; [cbn [step]; rewrite E; reflexivity|].
  split; [exact HI'|]. rewrite Ho', Hi'.
  split; [eapply Z.le_trans; [apply sum_len_filter_le | exact Hb]|]. split; [exact Hin|].
  eapply subseq_trans; [|exact Hout]. apply subseq_app; [apply subseq_refl | apply subseq_filter].
Qed.

End Step.

Lemma step_ginv c s h op :
  GInv (send_buf c) s h -> ctx_ok c -> send_buf c < 2 ^ 62 ->
  op_ok (cid_len c) (send_buf c) op -> step_keeps c s h op.
Proof.
  intros HG Hc Hsb Hop. destruct op as [drop d| |bl mx|w d| |mp| |m|p].
  - apply step_send; [exact Hc | exact HG | unfold USIZE_MAX; lia].
  - apply step_max_size; assumption.
  - apply step_write; assumption.
  - apply step_received; assumption.
  - apply step_recv; assumption.
  - apply step_drop_oversized; assumption.
  - eapply keeps_noop; [exact Hc | exact HG | reflexivity | reflexivity].
  - eexists _, s, _, _. split; [reflexivity|]. split; [exact HG|]. split; [exact Hop|]. split; reflexivity.
  - eexists _, s, _, _. split; [reflexivity|]. split; [exact HG|]. split; [exact Hc|]. split; reflexivity.
Qed.

(** All runs: no panic, no hang, and the invariant at the end. *)
Theorem exec_ginv ops : forall c s h,
  GInv (send_buf c) s h -> ctx_ok c -> send_buf c < 2 ^ 62 ->
  Forall (op_ok (cid_len c) (send_buf c)) ops ->
  exists c' s' h', exec c s h ops = Ok (c', s', h') /\ GInv (send_buf c) s' h' /\
                   send_buf c' = send_buf c.
Proof.
  induction ops as [|op rest IH]; intros c s h HG Hc Hsb Hops.
  - exists c, s, h. auto.
  - inversion Hops as [|? ? Hop Hrest]; subst.
    destruct (step_ginv c s h op HG Hc Hsb Hop) as (c' & s' & code & payload & E & HG' & Hc' & Hsb' & Hcl).
    cbn [exec]. rewrite E. rewrite <- Hsb', <- Hcl in Hrest. rewrite <- Hsb' in Hsb |- *.
    exact (IH c' s' _ HG' Hc' Hsb Hrest).
Qed.

Definition run_ok (c : Ctx) (ops : list Op) : Prop :=
  ctx_ok c /\ 0 <= send_buf c < 2 ^ 62 /\ Forall (op_ok (cid_len c) (send_buf c)) ops.

Lemma run_ginv c ops :
  run_ok c ops ->
  exists c' s' h', exec c init h0 ops = Ok (c', s', h') /\ GInv (send_buf c) s' h' /\
                   send_buf c' = send_buf c.
Proof.
  intros (Hc & Hsb & Hops). apply exec_ginv; [apply GInv_init; lia | exact Hc | lia | exact Hops].
Qed.

Lemma buffer_accounting c ops :
  run_ok c ops ->
  exists c' s' h', exec c init h0 ops = Ok (c', s', h') /\
    outgoing_total s' = sum_len (outgoing s') /\
    recv_buffered s' = sum_len (incoming s') /\
    0 <= outgoing_total s' <= send_buf c /\ 0 <= recv_buffered s' /\
    send_buffer_space c' s' = send_buf c - outgoing_total s'.
Proof.
  intros H. destruct (run_ginv c ops H) as (c' & s' & h' & He & ((Ho & Hi) & Hb & _) & Hsb).
  exists c', s', h'. split; [exact He|]. split; [exact Ho|]. split; [exact Hi|].
  pose proof (sum_len_nonneg (outgoing s')). pose proof (sum_len_nonneg (incoming s')).
  unfold send_buffer_space. rewrite Hsb, Ho, Hi. clear H He. repeat split; lia.
Qed.
