(** C11: [Finished] at most once per stream, never for a reset one, and the window of permitted
    remote streams stays full ([Inv11], [reach_Inv11]); what one [stream_freed] does to the id space
    ([stream_freed_spec]).
    Ghost: [g_fin] = ids with Finished emitted, [g_reset] = ids where [SendStream::reset] succeeded. *)
From QV Require Import Lib.Tac Lib.Corr Model.FlowRecv Model.StreamSpec Model.StreamSM
  Proofs.FlowRecvProofs.
Open Scope Z_scope.

Lemma sid_parts i d x : (i = 0 \/ i = 1) -> (d = 0 \/ d = 1) ->
  sid_init (mk_sid i d x) = i /\ sid_dir (mk_sid i d x) = d /\ sid_index (mk_sid i d x) = x.
Proof. unfold sid_init, sid_dir, sid_index, mk_sid. intros Hi Hd. lia. Qed.
Lemma sid_eq a b : sid_init a = sid_init b -> sid_dir a = sid_dir b -> sid_index a = sid_index b -> a = b.
Proof. unfold sid_init, sid_dir, sid_index. lia. Qed.
Lemma sid_dir01 id : sid_dir id = 0 \/ sid_dir id = 1.
Proof. unfold sid_dir. lia. Qed.

Lemma pget_pset_same {A} d (v : A) p : pget d (pset d v p) = v.
Proof. unfold pget, pset. destruct (d =? 0); reflexivity. Qed.
Lemma pget_pset_ge d d' v p : pget d p <= v -> pget d' p <= pget d' (pset d v p).
Proof. unfold pget, pset. destruct (d' =? 0); destruct (d =? 0); cbn [fst snd]; lia. Qed.
Lemma pset_pset {A} d (v w : A) p : pset d v (pset d w p) = pset d v p.
Proof. unfold pset. destruct (d =? 0); reflexivity. Qed.
Lemma pset_pget {A} d (p : A * A) : pset d (pget d p) p = p.
Proof. unfold pget, pset. destruct p; destruct (d =? 0); reflexivity. Qed.
Lemma pget_ext {A} (p q : A * A) : (forall d, pget d p = pget d q) -> p = q.
Proof.
  intro H. destruct p, q. pose proof (H 0) as H0. pose proof (H 1) as H1. cbv in H0, H1. congruence.
Qed.

(** [m'] is [m] with entries added under keys in [K] that [m] did not hold. *)
Definition adds {A} (K : Z -> Prop) (m m' : list (Z * A)) : Prop :=
  forall k, alookup k m' = alookup k m \/ (alookup k m = None /\ K k).
Lemma adds_refl {A} K (m : list (Z * A)) : adds K m m.
Proof. intro k. left. reflexivity. Qed.
Lemma adds_aset {A} (K : Z -> Prop) k (v : A) m : alookup k m = None -> K k -> adds K m (aset k v m).
Proof.
  intros L Hk k'. destruct (Z.eq_dec k' k) as [->|N]; [right; auto|left; apply look_aset_other, N].
Qed.
Lemma adds_trans {A} K (a b c : list (Z * A)) : adds K a b -> adds K b c -> adds K a c.
Proof.
  intros H1 H2 k. destruct (H2 k) as [E2|[E2 K2]]; destruct (H1 k) as [E1|[E1 K1]];
    [left; congruence|right; split; congruence ..].
Qed.
Lemma adds_weaken {A} (K K' : Z -> Prop) (m m' : list (Z * A)) :
  (forall k, K k -> K' k) -> adds K m m' -> adds K' m m'.
Proof. intros HK H k. destruct (H k) as [E1|[E1 K1]]; auto. Qed.

Definition in_range (s : st) (id : Z) : Prop :=
  if sid_init id =? side s then sid_index id < pget (sid_dir id) (nxt s)
  else sid_index id < pget (sid_dir id) (max_remote s).

Definition reset_or_gone (s : st) (id : Z) : Prop :=
  alookup id (sendm s) = None \/
  exists sd, alookup id (sendm s) = Some (TSome sd) /\ s_state sd = 3.

Record Inv11 (s : st) : Prop := mkInv11 {
  j_side : side s = 0 \/ side s = 1;
  j_keys : forall id t, alookup id (sendm s) = Some t ->
             in_range s id /\ (sid_init id <> side s -> sid_dir id = 0);
  j_fin : forall id, In id (g_fin s) -> alookup id (sendm s) = None /\ in_range s id;
  j_nodup : NoDup (g_fin s);
  j_reset : forall id, In id (g_reset s) ->
              ~ In id (g_fin s) /\ in_range s id /\ reset_or_gone s id;
  (* the window of permitted remote streams is kept full *)
  j_alloc : alloc s = max_conc s }.

(** The id space grows and send halves appear only in the part that came into range. *)
Lemma Inv11_grow s s' :
  Inv11 s -> side s' = side s -> g_fin s' = g_fin s -> g_reset s' = g_reset s ->
  alloc s' = max_conc s' -> (forall k, in_range s k -> in_range s' k) ->
  adds (fun k => ~ in_range s k /\ in_range s' k /\ (sid_init k <> side s -> sid_dir k = 0))
       (sendm s) (sendm s') ->
  Inv11 s'.
Proof.
  intros [J1 J2 J3 J4 J5 J6] A1 A3 A4 A7 Mono Ad. constructor.
  - rewrite A1. exact J1.
  - intros k t L. rewrite A1. destruct (Ad k) as [H|(H1 & H2 & H3 & H4)]; [|split; assumption].
    rewrite H in L. destruct (J2 k t L) as [R1 R2]. split; [apply Mono; exact R1|exact R2].
  - rewrite A3. intros k Hk. destruct (J3 k Hk) as [R1 R2]. split; [|apply Mono; exact R2].
    destruct (Ad k) as [H|(H1 & H2 & _)]; [congruence|contradiction].
  - rewrite A3. exact J4.
  - rewrite A4, A3. intros k Hk. destruct (J5 k Hk) as (R1 & R2 & R3).
    split; [exact R1|]. split; [apply Mono; exact R2|].
    destruct (Ad k) as [H|(H1 & H2 & _)]; [|contradiction].
    unfold reset_or_gone. rewrite H. exact R3.
  - exact A7.
Qed.

Definition sfields (s : st) :=
  (side s, nxt s, g_fin s, g_reset s, max_remote s, sendm s, alloc s, max_conc s).

Lemma Inv11_sfields s s' : Inv11 s -> sfields s' = sfields s -> Inv11 s'.
Proof.
  intros I H. injection H as A1 A2 A3 A4 A5 A6 A7 A8.
  apply (Inv11_grow s s' I A1 A3 A4).
  - rewrite A7, A8. apply I.
  - intro k. unfold in_range. rewrite A1, A2, A5. auto.
  - rewrite A6. apply adds_refl.
Qed.

(** Extension: remotely initiated bidirectional streams beyond the old limit came into existence. *)
Definition E (s s' : st) : Prop :=
  side s' = side s /\ nxt s' = nxt s /\ g_fin s' = g_fin s /\ g_reset s' = g_reset s /\
  (forall d, pget d (max_remote s) <= pget d (max_remote s')) /\
  (forall id, alookup id (sendm s') = alookup id (sendm s) \/
     (alookup id (sendm s) = None /\ sid_init id <> side s /\ sid_dir id = 0 /\
      pget 0 (max_remote s) <= sid_index id < pget 0 (max_remote s'))) /\
  ((forall d, pget d (alloc s) = pget d (max_conc s)) ->
   (forall d, pget d (alloc s') = pget d (max_conc s'))).

Lemma E_side s s' : E s s' -> (side s = 0 \/ side s = 1) -> (side s' = 0 \/ side s' = 1).
Proof. intros (A1 & _) H. rewrite A1. exact H. Qed.

Lemma E_in_range s s' k : E s s' -> in_range s k ->
  in_range s' k /\ alookup k (sendm s') = alookup k (sendm s).
Proof.
  intros (A1 & A2 & _ & _ & A5 & A6 & _). unfold in_range. rewrite A1, A2. intro R.
  specialize (A5 (sid_dir k)). destruct (sid_init k =? side s) eqn:Ei.
  - split; [exact R|]. destruct (A6 k) as [H|(_ & H2 & _)]; [exact H|lia].
  - split; [lia|]. destruct (A6 k) as [H|(_ & _ & H3 & H4)]; [exact H|]. rewrite H3 in R. lia.
Qed.

Lemma Inv11_E s s' : Inv11 s -> E s s' -> Inv11 s'.
Proof.
  intros I He. pose proof He as (A1 & A2 & A3 & A4 & A5 & A6 & A7).
  apply (Inv11_grow s s' I A1 A3 A4).
  - apply pget_ext, A7. intro d. rewrite (j_alloc _ I). reflexivity.
  - intros k R. apply (E_in_range s s' k He R).
  - intro k. destruct (A6 k) as [H|(H1 & H2 & H3 & H4)]; [left; exact H|]. right.
    split; [exact H1|]. unfold in_range. rewrite A1.
    destruct (sid_init k =? side s) eqn:Ei; [lia|]. rewrite H3. split; [lia|]. split; [lia|auto].
Qed.

Definition keeps (s : st) := (side s, nxt s, g_fin s, g_reset s, max_conc s).

Lemma insert_stream_spec remote id s :
  let s' := insert_stream remote id s in
  keeps s' = keeps s /\ alloc s' = alloc s /\ max_remote s' = max_remote s /\
  adds (fun k => k = id /\ (remote = true -> sid_dir id = 0)) (sendm s) (sendm s').
Proof.
  unfold insert_stream.
  set (s1 := if (sid_dir id =? 0) || negb remote then _ else s).
  assert (H1 : keeps s1 = keeps s /\ alloc s1 = alloc s /\ max_remote s1 = max_remote s /\
               adds (fun k => k = id /\ (remote = true -> sid_dir id = 0)) (sendm s) (sendm s1)).
  { subst s1. destruct ((sid_dir id =? 0) || negb remote) eqn:D;
      [destruct (amem id (sendm s)) eqn:M|]; repeat (split; [reflexivity|]); try apply adds_refl.
    apply adds_aset; [apply amem_look, M|]. split; [reflexivity|]. intros ->. cbn in D. lia. }
  destruct ((sid_dir id =? 0) || remote); [|exact H1].
  destruct (amem id (recvm s1)); [|destruct (0 <? free_recv s1)]; exact H1.
Qed.

Lemma insert_range_spec n d from s :
  (side s = 0 \/ side s = 1) -> (d = 0 \/ d = 1) ->
  let s' := insert_remote_range n d from s in
  keeps s' = keeps s /\ alloc s' = alloc s /\ max_remote s' = max_remote s /\
  adds (fun k => sid_init k <> side s /\ sid_dir k = 0 /\ d = 0 /\
                 from <= sid_index k < from + Z.of_nat n) (sendm s) (sendm s').
Proof.
  intros Hs Hd. revert from s Hs.
  induction n as [|n IH]; intros from s Hs; cbn [insert_remote_range].
  - repeat (split; [reflexivity|]). apply adds_refl.
  - set (id := mk_sid (1 - side s) d from).
    destruct (sid_parts (1 - side s) d from ltac:(lia) Hd) as (P1 & P2 & P3). fold id in P1, P2, P3.
    destruct (insert_stream_spec true id s) as (A1 & A2 & A3 & A4). cbv zeta in *.
    set (s1 := insert_stream true id s) in *.
    assert (S1 : side s1 = side s) by (injection A1; auto).
    destruct (IH (from + 1) s1 ltac:(lia)) as (B1 & B2 & B3 & B4).
    split; [congruence|]. split; [congruence|]. split; [congruence|].
    eapply adds_trans; (eapply adds_weaken; [|eassumption]); cbv beta.
    + intros k (-> & D0). specialize (D0 eq_refl). lia.
    + intros k (K1 & K2 & K3 & K4). rewrite S1 in K1. lia.
Qed.

Lemma ensure_spec d s : (side s = 0 \/ side s = 1) -> (d = 0 \/ d = 1) ->
  let nc := Z.max 0 (pget d (max_conc s) - pget d (alloc s)) in
  let s' := ensure_remote_streams d s in
  keeps s' = keeps s /\ alloc s' = pset d (pget d (alloc s) + nc) (alloc s) /\
  max_remote s' = pset d (pget d (max_remote s) + nc) (max_remote s) /\
  adds (fun k => sid_init k <> side s /\ sid_dir k = 0 /\ d = 0 /\
                 pget d (max_remote s) <= sid_index k < pget d (max_remote s) + nc)
       (sendm s) (sendm s').
Proof.
  intros Hs Hd nc. unfold ensure_remote_streams. fold nc.
  destruct (insert_range_spec (Z.to_nat nc) d (pget d (max_remote s)) s Hs Hd)
    as (A1 & A2 & A3 & A4). cbv zeta in *.
  rewrite Z2Nat.id in A4 by (subst nc; lia).
  prj. rewrite A2, A3. repeat (split; [assumption || reflexivity|]). exact A4.
Qed.

Lemma stream_freed_spec id (half : bool) s : (side s = 0 \/ side s = 1) ->
  let d := sid_dir id in
  let fully := negb (sid_init id =? side s) &&
               ((d =? 1) || (if half then negb (amem id (recvm s)) else negb (amem id (sendm s)))) in
  let nc := Z.max 0 (pget d (max_conc s) - (pget d (alloc s) - 1)) in
  let s' := stream_freed id half s in
  keeps s' = keeps s /\
  alloc s' = (if fully then pset d (pget d (alloc s) - 1 + nc) (alloc s) else alloc s) /\
  max_remote s' = (if fully then pset d (pget d (max_remote s) + nc) (max_remote s)
                   else max_remote s) /\
  adds (fun k => fully = true /\ sid_init k <> side s /\ sid_dir k = 0 /\ d = 0 /\
                 pget d (max_remote s) <= sid_index k < pget d (max_remote s) + nc)
       (sendm s) (sendm s').
Proof.
  intros Hs d fully nc. unfold stream_freed. fold d.
  set (s1 := if negb (sid_init id =? side s) then _ else s).
  assert (H : keeps s1 = keeps s /\
              alloc s1 = (if fully then pset d (pget d (alloc s) - 1 + nc) (alloc s) else alloc s) /\
              max_remote s1 = (if fully then pset d (pget d (max_remote s) + nc) (max_remote s)
                               else max_remote s) /\
              adds (fun k => fully = true /\ sid_init k <> side s /\ sid_dir k = 0 /\ d = 0 /\
                             pget d (max_remote s) <= sid_index k < pget d (max_remote s) + nc)
                   (sendm s) (sendm s1)).
  { subst s1 fully. destruct (negb (sid_init id =? side s)); cbn [andb];
      [|repeat (split; [reflexivity|]); apply adds_refl].
    match goal with |- context [if ?c then ensure_remote_streams _ _ else _] => destruct c end;
      [|repeat (split; [reflexivity|]); apply adds_refl].
    set (s0 := set_panic_if _ _).
    assert (F : keeps s0 = keeps s /\ max_remote s0 = max_remote s /\ sendm s0 = sendm s /\
                alloc s0 = pset d (pget d (alloc s) - 1) (alloc s))
      by (subst s0; destruct (pget d (alloc s) <=? 0); repeat split; reflexivity).
    destruct F as (F1 & F2 & F3 & F4).
    assert (S0 : side s0 = side s) by (injection F1; auto).
    assert (C0 : max_conc s0 = max_conc s) by (injection F1; auto).
    destruct (ensure_spec d s0 ltac:(lia) (sid_dir01 id)) as (G1 & G2 & G3 & G4). cbv zeta in *.
    rewrite F2, F3, F4, C0, S0, pget_pset_same in *. rewrite pset_pset in G2. fold nc in G2, G3, G4.
    split; [congruence|]. split; [exact G2|]. split; [exact G3|].
    eapply adds_weaken; [|exact G4]. cbv beta. tauto. }
  destruct half; [|exact H]. destruct (send_streams s1 <=? 0); exact H.
Qed.

Lemma stream_freed_E id half s : (side s = 0 \/ side s = 1) -> E s (stream_freed id half s).
Proof.
  intro Hs. destruct (stream_freed_spec id half s Hs) as (A & B & C & D). cbv zeta in *.
  set (d := sid_dir id) in *.
  set (nc := Z.max 0 (pget d (max_conc s) - (pget d (alloc s) - 1))) in *.
  injection A as A1 A2 A3 A4 A5. unfold E. rewrite C.
  split; [exact A1|]. split; [exact A2|]. split; [exact A3|]. split; [exact A4|].
  match type of B with context [if ?c then _ else _] => destruct c end.
  - split; [intro d'; apply pget_pset_ge; lia|]. split.
    + intro k. destruct (D k) as [H|(H1 & _ & H2 & H3 & H4 & H5)]; [left; exact H|]. right.
      rewrite H4 in *. rewrite pget_pset_same. auto.
    + (* a full window: one stream leaves, one is permitted *)
      intros HA d'. apply pget_ext in HA. rewrite B, A5. subst nc. rewrite <- HA.
      replace (pget d (alloc s) - 1 + Z.max 0 (pget d (alloc s) - (pget d (alloc s) - 1)))
        with (pget d (alloc s)) by lia.
      rewrite pset_pget. reflexivity.
  - split; [intro; lia|]. split; [|rewrite B, A5; auto].
    intro k. destruct (D k) as [H|(_ & H & _)]; [left; exact H|discriminate].
Qed.

Lemma stream_freed_Inv11 id half s : Inv11 s -> Inv11 (stream_freed id half s).
Proof. intro I. exact (Inv11_E _ _ I (stream_freed_E id half s (j_side _ I))). Qed.

Lemma stream_recv_freed_Inv11 id e s s' :
  Inv11 s -> sfields s' = sfields s -> Inv11 (stream_recv_freed id e s').
Proof.
  intros I H. unfold stream_recv_freed. apply stream_freed_Inv11, (Inv11_sfields _ _ I). exact H.
Qed.

Lemma on_stream_frame_sfields n id s : sfields (on_stream_frame n id s) = sfields s.
Proof. apply on_stream_frame_only; reflexivity. Qed.
Lemma queue_sfields s : sfields (fst (queue_max_stream_id s)) = sfields s.
Proof. apply queue_only; reflexivity. Qed.

Lemma add_read_credits_sfields c s s' t : add_read_credits c s = (s', t) -> sfields s' = sfields s.
Proof.
  intro A. apply (f_equal fst) in A. cbn [fst] in A. subst s'. unfold add_read_credits.
  destruct (debt (set_g_credits (g_credits s + c) s) <? c); prj;
    match goal with |- sfields (fst (if ?c then _ else _)) = _ => destruct c end; cbn [fst];
    try match goal with |- context [set_panic_if ?b _] => destruct b end; reflexivity.
Qed.

Lemma received_Inv11 id off len fin s : Inv11 s -> Inv11 (fst (received true id off len fin s)).
Proof.
  intro I. unfold received.
  destruct (validate_receive_id id s); [exact I|].
  destruct (alookup id (recvm s)) as [slot|]; [|exact I].
  set (s1 := set_recvm _ s). assert (I1 : Inv11 s1) by (apply (Inv11_sfields _ _ I); reflexivity).
  destruct (negb (is_receiving (rview s slot))); [exact I1|].
  destruct (ingest _ _ _ _ _ _ _) as [c|[[r' nb] closed]]; [exact I1|].
  set (s2 := set_data_recvd _ _). assert (I2 : Inv11 s2) by (apply (Inv11_sfields _ _ I); reflexivity).
  destruct (negb (r_stopped r')); [exact (Inv11_sfields _ _ I2 (on_stream_frame_sfields true id s2))|].
  set (s3 := if closed then _ else s2).
  assert (I3 : Inv11 s3).
  { subst s3. destruct closed; [|exact I2]. apply (stream_recv_freed_Inv11 _ _ s _ I). reflexivity. }
  destruct (add_read_credits nb s3) as [s4 t] eqn:A.
  exact (Inv11_sfields _ _ I3 (add_read_credits_sfields _ _ _ _ A)).
Qed.

Lemma received_reset_Inv11 id code final s :
  Inv11 s -> Inv11 (fst (received_reset true id code final s)).
Proof.
  intro I. unfold received_reset.
  destruct (validate_receive_id id s); [exact I|].
  destruct (alookup id (recvm s)) as [slot|]; [|exact I].
  set (s1 := set_recvm _ s). assert (I1 : Inv11 s1) by (apply (Inv11_sfields _ _ I); reflexivity).
  destruct (recv_reset _ _ _ _ _) as [c|[r' [|]]]; try exact I1. cbn [fst].
  set (s2 := set_recvm (aset id (SOpen r') (recvm s1)) s1).
  set (s3 := if r_stopped r' then _ else s2).
  assert (I3 : Inv11 s3).
  { subst s3. destruct (r_stopped r'); [|apply (Inv11_sfields _ _ I); reflexivity].
    apply (stream_recv_freed_Inv11 _ _ s _ I). reflexivity. }
  pose proof (Inv11_sfields _ _ I3 (on_stream_frame_sfields (negb (r_stopped r')) id s3)) as I4.
  set (s4 := on_stream_frame (negb (r_stopped r')) id s3) in *.
  destruct (negb (_ =? final)); [|exact I4].
  destruct (add_read_credits _ _) as [s6 t] eqn:A. apply (Inv11_sfields _ _ I4). cbn [fst].
  rewrite (add_read_credits_sfields _ _ _ _ A).
  destruct (final <? r_end r'); destruct (final <? _); reflexivity.
Qed.

Lemma read_op_Inv11 id ordered budget s :
  Inv11 s -> Inv11 (fst (read_op true id ordered budget s)).
Proof.
  intro I. unfold read_op.
  destruct (alookup id (recvm s)) as [slot|]; [|exact I].
  set (r := rview s slot). set (s1 := set_recvm _ s).
  assert (I1 : Inv11 s1) by (apply (Inv11_sfields _ _ I); reflexivity).
  destruct (r_stopped r); [exact I1|].
  destruct (asm_ensure (r_asm r) ordered) as [a1|]; [|exact I1].
  destruct (asm_read a1 budget) as [[a2 total] none].
  match goal with |- context [let '(term, code) := ?e in _] => destruct e as [term code] end.
  set (r2 := mkRecv _ _ _ _ _).
  set (freed := (term =? 2) || (term =? 3)).
  set (s3 := if freed then _ else s1).
  assert (I3 : Inv11 s3).
  { subst s3. destruct freed; [|exact I1]. apply (stream_recv_freed_Inv11 _ _ s _ I). reflexivity. }
  set (s3' := set_panic_if _ s3).
  assert (I3' : Inv11 s3').
  { apply (Inv11_sfields _ _ I3). subst s3'.
    match goal with |- context [set_panic_if ?b _] => destruct b end; reflexivity. }
  pose proof (queue_sfields s3') as Q4. destruct (queue_max_stream_id s3') as [s4 q].
  set (p5 := if freed then (s4, false) else _).
  assert (Q5 : sfields (fst p5) = sfields s4).
  { subst p5. destruct freed; [reflexivity|].
    destruct (max_stream_data r2 (swin s4)) as [[m [|]]|]; reflexivity. }
  destruct p5 as [s5 t1]. cbn [fst] in Q5.
  destruct (add_read_credits total s5) as [s6 t2] eqn:A.
  pose proof (add_read_credits_sfields _ _ _ _ A) as Q6.
  apply (Inv11_sfields _ _ I3'). cbn [fst] in Q4 |- *. change (sfields s6 = sfields s3'). congruence.
Qed.

Lemma stop_op_Inv11 id code s : Inv11 s -> Inv11 (fst (stop_op true id code s)).
Proof.
  intro I. unfold stop_op.
  destruct (alookup id (recvm s)) as [slot|]; [|exact I].
  set (r := rview s slot). set (s1 := set_recvm _ s).
  destruct (r_stopped r); [apply (Inv11_sfields _ _ I); reflexivity|].
  set (s2 := set_panic_if _ _). set (s3 := if is_receiving r then _ else s2).
  assert (Q3 : sfields s3 = sfields s).
  { subst s3 s2 s1. destruct (is_receiving r);
      match goal with |- context [set_panic_if ?b _] => destruct b end; reflexivity. }
  set (s4 := if negb (final_unknown r) then _ else s3).
  assert (I4 : Inv11 s4).
  { subst s4. destruct (negb (final_unknown r)); [|exact (Inv11_sfields _ _ I Q3)].
    apply (stream_recv_freed_Inv11 _ _ s _ I). exact Q3. }
  destruct (add_read_credits _ s4) as [s5 t] eqn:A. apply (Inv11_sfields _ _ I4). cbn [fst].
  rewrite <- (add_read_credits_sfields _ _ _ _ A). destruct t; reflexivity.
Qed.

Lemma rreset_op_Inv11 id s : Inv11 s -> Inv11 (fst (rreset_op id s)).
Proof.
  intro I. unfold rreset_op.
  destruct (alookup id (recvm s)) as [[| |r]|]; try exact I.
  destruct (r_stopped r); [exact I|]. destruct (reset_code r); [|exact I].
  set (s1 := stream_recv_freed _ _ _).
  assert (I1 : Inv11 s1) by (apply (stream_recv_freed_Inv11 _ _ s _ I); reflexivity).
  pose proof (queue_sfields s1) as Q2. destruct (queue_max_stream_id s1) as [s2 q].
  exact (Inv11_sfields _ _ I1 Q2).
Qed.

Lemma emit_msd_sfields ids s : sfields (fst (emit_msd ids s)) = sfields s.
Proof.
  apply (emit_msd_pres (fun x => sfields x = sfields s)); [intros x H; exact H| |reflexivity].
  intros id r m x H _. exact H.
Qed.

Lemma control_op_sfields a b c s : sfields (fst (fst (control_op a b c s))) = sfields s.
Proof.
  destruct (control_op_only sfields a b c s) as (s5 & A5 & A6); [reflexivity ..|].
  rewrite A6, emit_msd_sfields. exact A5.
Qed.

(** Only the send half under [id] changes: none is created, and a reset one stays reset or goes. *)
Lemma Inv11_at s id m' :
  Inv11 s -> (forall k, k <> id -> alookup k m' = alookup k (sendm s)) ->
  (alookup id (sendm s) = None -> alookup id m' = None) ->
  (forall sd, alookup id (sendm s) = Some (TSome sd) -> s_state sd = 3 ->
     alookup id m' = None \/ exists sd', alookup id m' = Some (TSome sd') /\ s_state sd' = 3) ->
  Inv11 (set_sendm m' s).
Proof.
  intros [J1 J2 J3 J4 J5 J6] Other Gone Reset. constructor; prj; try assumption.
  - intros k t' L'. destruct (Z.eq_dec k id) as [->|N]; [|rewrite (Other k N) in L'; exact (J2 k t' L')].
    destruct (alookup id (sendm s)) as [t|] eqn:L; [exact (J2 id t L)|]. rewrite Gone in L'; congruence.
  - intros k Hk. destruct (J3 k Hk) as [R1 R2]. split; [|exact R2].
    destruct (Z.eq_dec k id) as [->|N]; [exact (Gone R1)|rewrite (Other k N); exact R1].
  - intros k Hk. destruct (J5 k Hk) as (R1 & R2 & R3). split; [exact R1|]. split; [exact R2|].
    unfold reset_or_gone in *. prj.
    destruct (Z.eq_dec k id) as [->|N]; [|rewrite (Other k N); exact R3].
    destruct R3 as [R3|(sd & R3 & R4)]; [left; exact (Gone R3)|exact (Reset sd R3 R4)].
Qed.

Lemma upd_Inv11 s id t sd' :
  Inv11 s -> alookup id (sendm s) = Some t -> (s_state (sview t) = 3 -> s_state sd' = 3) ->
  Inv11 (with_send id sd' s).
Proof.
  intros I L K. apply (Inv11_at s id); [exact I|intros k N; apply look_aset_other, N|congruence|].
  intros sd L' S3. right. exists sd'. split; [apply look_aset_same|].
  apply K. rewrite L in L'. inversion L'; subst. exact S3.
Qed.
Lemma with_send_look id sd s : alookup id (sendm (with_send id sd s)) = Some (TSome sd).
Proof. apply look_aset_same. Qed.

(** [write] and [finish] store the half back twice. *)
Lemma store_twice_Inv11 id t sd' (pend : bool) s :
  Inv11 s -> alookup id (sendm s) = Some t -> (s_state (sview t) = 3 -> s_state sd' = 3) ->
  let s2 := with_send id sd' (with_send id (sview t) s) in
  Inv11 (if pend then s2 else push_pending id s2).
Proof.
  intros I L K s2.
  assert (I2 : Inv11 s2).
  { apply (upd_Inv11 _ id (TSome (sview t)) sd'); [|apply with_send_look|exact K].
    apply (upd_Inv11 s id t _ I L). auto. }
  destruct pend; [exact I2|]. apply (Inv11_sfields _ _ I2). reflexivity.
Qed.

Lemma write_op_Inv11 id len s : Inv11 s -> Inv11 (fst (write_op id len s)).
Proof.
  intro I. unfold write_op. destruct (alookup id (sendm s)) as [t|] eqn:L; [|exact I].
  assert (I1 : Inv11 (with_send id (sview t) s)) by (apply (upd_Inv11 s id t _ I L); auto).
  destruct (negb (s_state (sview t) =? 0)) eqn:E0; [exact I1|].
  destruct (s_stop (sview t)); [exact I1|].
  apply (store_twice_Inv11 id t _ _ s I L). cbn [s_state]. lia.
Qed.

Lemma finish_op_Inv11 id s : Inv11 s -> Inv11 (fst (finish_op id s)).
Proof.
  intro I. unfold finish_op. destruct (alookup id (sendm s)) as [t|] eqn:L; [|exact I].
  assert (I1 : Inv11 (with_send id (sview t) s)) by (apply (upd_Inv11 s id t _ I L); auto).
  destruct (s_stop (sview t)); [exact I1|].
  destruct (s_state (sview t) =? 0) eqn:E0; [|exact I1].
  apply (store_twice_Inv11 id t _ _ s I L). cbn [s_state]. lia.
Qed.

Lemma stop_sending_op_Inv11 id code s : Inv11 s -> Inv11 (fst (stop_sending_op id code s)).
Proof.
  intro I. unfold stop_sending_op. destruct (alookup id (sendm s)) as [t|] eqn:L; [|exact I].
  destruct (s_stop (sview t)); cbn [fst]; [apply (upd_Inv11 s id t _ I L); auto|].
  eapply Inv11_sfields; [|apply on_stream_frame_sfields].
  set (s1 := with_send _ _ s). apply (Inv11_sfields s1); [|reflexivity].
  apply (upd_Inv11 s id t _ I L). cbn [s_state]. auto.
Qed.

Lemma sreset_op_Inv11 id code s : Inv11 s -> Inv11 (fst (sreset_op id code s)).
Proof.
  intro I. unfold sreset_op. destruct (alookup id (sendm s)) as [t|] eqn:L; [|exact I].
  set (sd := sview t).
  destruct (s_state sd =? 3) eqn:E3; cbn [fst]; [apply (upd_Inv11 s id t sd I L); auto|].
  set (s1 := with_send id (send_set_state sd 3) s).
  assert (I1 : Inv11 s1) by (apply (upd_Inv11 s id t _ I L); reflexivity).
  assert (L1 : alookup id (sendm s1) = Some (TSome (send_set_state sd 3))) by apply with_send_look.
  destruct I1 as [J1 J2 J3 J4 J5 J6].
  constructor; prj; try assumption.
  intros k [<-|Hk]; [|apply J5; exact Hk].
  split; [intro Hf; destruct (J3 id Hf) as [C _]; congruence|].
  split; [apply (J2 id _ L1)|].
  right. exists (send_set_state sd 3). split; [exact L1|reflexivity].
Qed.

Lemma remove_Inv11 s id : Inv11 s -> Inv11 (set_sendm (aremove_all id (sendm s)) s).
Proof.
  intro I. apply (Inv11_at s id); [exact I|intros k N; apply look_remove_other, N|..]; intros;
    try left; apply look_remove_same.
Qed.

Lemma reset_acked_op_Inv11 id s : Inv11 s -> Inv11 (fst (reset_acked_op id s)).
Proof.
  intro I. unfold reset_acked_op.
  destruct (alookup id (sendm s)) as [[|sd]|]; try exact I.
  destruct (s_state sd =? 3); [|exact I].
  apply stream_freed_Inv11, remove_Inv11, I.
Qed.

Lemma ack_frame_Inv11 id a b fin s : Inv11 s -> Inv11 (ack_frame id a b fin s).
Proof.
  intro I. unfold ack_frame.
  destruct (alookup id (sendm s)) as [[|sd]|] eqn:L; try exact I.
  destruct (s_state sd =? 3) eqn:E3; [exact I|].
  destruct (sbuf_ack sd a b) as [un acks].
  destruct ((_ =? 2) && (un =? 0));
    [|apply (upd_Inv11 s id _ _ I L); cbn [sview s_state]; intro; lia].
  (* Finished: the half is removed for good, so [id] is neither in [g_fin] nor in [g_reset] *)
  set (s0 := set_sendm (aremove_all id (sendm s)) s).
  pose proof (stream_freed_E id true s0 (j_side _ I)) as He.
  pose proof (stream_freed_Inv11 id true s0 (remove_Inv11 s id I)) as I1.
  set (s1 := stream_freed id true s0) in *.
  destruct (E_in_range s0 s1 id He (proj1 (j_keys _ I id _ L))) as [Rg1 L1].
  assert (L1' : alookup id (sendm s1) = None) by (rewrite L1; apply look_remove_same).
  destruct He as (_ & _ & A3 & A4 & _).
  assert (NF : ~ In id (g_fin s1)).
  { rewrite A3. intro Hf. destruct (j_fin _ I id Hf) as [C _]. congruence. }
  assert (NR : ~ In id (g_reset s1)).
  { rewrite A4. intro Hr. destruct (j_reset _ I id Hr) as (_ & _ & [C|(sd2 & C1 & C2)]); [congruence|].
    rewrite L in C1. inversion C1; subst. lia. }
  destruct I1 as [J1 J2 J3 J4 J5 J6].
  constructor; prj; try assumption.
  - intros k [<-|Hk]; [split; assumption|apply J3; exact Hk].
  - constructor; assumption.
  - intros k Hk. destruct (J5 k Hk) as (R1 & R2 & R3). split; [|split; assumption].
    intros [<-|Hf]; [apply NR; exact Hk|apply R1; exact Hf].
Qed.

Lemma lose_frame_Inv11 id a b fin s : Inv11 s -> Inv11 (lose_frame id a b fin s).
Proof.
  intro I. unfold lose_frame.
  destruct (alookup id (sendm s)) as [[|sd]|] eqn:L; try exact I.
  set (s1 := if is_pending sd then s else push_pending id s).
  assert (Q1 : sfields s1 = sfields s) by (subst s1; destruct (is_pending sd); reflexivity).
  apply (upd_Inv11 s1 id (TSome sd) _ (Inv11_sfields _ _ I Q1)); [|cbn [sview s_state]; auto].
  injection Q1 as _ _ _ _ _ A6 _ _. rewrite A6. exact L.
Qed.

Lemma log_op_Inv11 lose k s : Inv11 s -> Inv11 (fst (log_op lose k s)).
Proof.
  intro I. unfold log_op. destruct (slog s) eqn:SL; [exact I|]. rewrite <- SL.
  destruct (nth_error (slog s) _) as [[[[[id a] b] fin] status]|]; [|exact I].
  destruct (negb (status =? 0)); [exact I|]. cbn [fst].
  destruct lose; [apply lose_frame_Inv11|apply ack_frame_Inv11]; apply (Inv11_sfields _ _ I); reflexivity.
Qed.

Lemma flush_loop_Inv11 fuel q s acc : Inv11 s -> Inv11 (fst (fst (flush_loop fuel q s acc))).
Proof.
  revert q s acc. induction fuel as [|fuel IH]; intros q s acc I; destruct q as [|id rest];
    cbn [flush_loop fst]; try exact I.
  - apply (Inv11_sfields _ _ I). reflexivity.
  - destruct (alookup id (sendm s)) as [[|sd]|] eqn:L; try (apply IH; exact I).
    destruct (s_state sd =? 3); [apply IH; exact I|].
    destruct (transmit_one sd) as [sd' [[a b] fin]] eqn:T.
    apply IH. apply (upd_Inv11 s id _ _ I L). cbn [sview].
    unfold transmit_one in T.
    destruct (s_retx sd) as [|[a0 b0] r0]; inversion T; subst; cbn [s_state]; auto.
Qed.

Lemma flush_op_Inv11 s : Inv11 s -> Inv11 (fst (fst (flush_op s))).
Proof.
  intro I. unfold flush_op.
  match goal with |- context [flush_loop ?f ?q ?x ?a] =>
    assert (I0 : Inv11 x) by (apply (Inv11_sfields _ _ I); reflexivity);
    pose proof (flush_loop_Inv11 f q x a I0) as I1; destruct (flush_loop f q x a) as [[s1 acc] okf] end.
  cbn [fst] in I1. destruct okf; apply (Inv11_sfields _ _ I1); reflexivity.
Qed.

Lemma open_op_Inv11 d s : (d = 0 \/ d = 1) -> Inv11 s -> Inv11 (fst (open_op d s)).
Proof.
  intros Hd I. unfold open_op. destruct (pget d (maxl s) <=? pget d (nxt s)); [exact I|]. cbn [fst].
  set (id := mk_sid (side s) d (pget d (nxt s))).
  destruct (sid_parts (side s) d (pget d (nxt s)) (j_side _ I) Hd) as (P1 & P2 & P3).
  fold id in P1, P2, P3.
  set (s1 := set_nxt (pset d (pget d (nxt s) + 1) (nxt s)) s).
  destruct (insert_stream_spec false id s1) as (A & B & C & D). cbv zeta in *.
  set (s2 := insert_stream false id s1) in *. injection A as A1 A2 A3 A4 A5.
  (* the id at the old [nxt] comes into range *)
  apply (Inv11_grow s); prj; try assumption.
  - rewrite B, A5. apply I.
  - intro k. unfold in_range. prj. rewrite A1, A2, C. prj. destruct (sid_init k =? side s); [|auto].
    pose proof (pget_pset_ge d (sid_dir k) (pget d (nxt s) + 1) (nxt s) ltac:(lia)). lia.
  - eapply adds_weaken; [|exact D]. cbv beta. intros k [-> _]. unfold in_range. prj.
    rewrite A1, A2. rewrite P1, Z.eqb_refl, P2, P3, pget_pset_same.
    split; [lia|]. split; [lia|congruence].
Qed.

Lemma init_Inv11 sd mru mrb rw srw pmb pmu :
  (sd = 0 \/ sd = 1) -> Inv11 (init sd mru mrb rw srw pmb pmu).
Proof.
  intros Hs. unfold init.
  set (s0 := mkSt _ _ _ _ _ _ _ _ _ _ _ _ _ _ _ _ _ _ _ _ _ _ _ _ _ _ _ _ _ _ _ _ _ _ _).
  destruct (insert_range_spec (Z.to_nat mrb) 0 0 s0 Hs (or_introl eq_refl)) as (A & Aa & Ar & Am).
  cbv zeta in *. set (s1 := insert_remote_range (Z.to_nat mrb) 0 0 s0) in *.
  injection A as A1 A2 A3 A4 A5.
  destruct (insert_range_spec (Z.to_nat mru) 1 0 s1 ltac:(rewrite A1; exact Hs) (or_intror eq_refl))
    as (B & Ba & Br & Bm).
  cbv zeta in *. set (s2 := insert_remote_range (Z.to_nat mru) 1 0 s1) in *.
  injection B as B1 B2 B3 B4 B5.
  constructor.
  - rewrite B1, A1. exact Hs.
  - intros k t L.
    destruct (Bm k) as [H|(_ & _ & _ & Hd & _)]; [|lia]. rewrite H in L.
    destruct (Am k) as [H'|(H1 & H2 & H3 & _ & H4)]; [rewrite H' in L; discriminate|].
    rewrite B1, A1. split; [|intros _; exact H3].
    unfold in_range. rewrite B1, A1. change (side s0) with sd in H2 |- *.
    destruct (sid_init k =? sd) eqn:Ei; [lia|].
    rewrite H3, Br, Ar. change (pget 0 (max_remote s0)) with mrb. lia.
  - rewrite B3, A3. intros k [].
  - rewrite B3, A3. constructor.
  - rewrite B4, A4. intros k [].
  - rewrite Ba, Aa, B5, A5. reflexivity.
Qed.

Lemma set_window_op_sfields w s : sfields (fst (set_window_op w s)) = sfields s.
Proof. unfold set_window_op. destruct (rwin s <? w); reflexivity. Qed.
Lemma accept_op_sfields d s : sfields (fst (accept_op d s)) = sfields s.
Proof.
  unfold accept_op. destruct (pget d (next_remote s) =? pget d (next_rep s)); [reflexivity|].
  destruct (d =? 0); reflexivity.
Qed.
Lemma poll_op_sfields s : sfields (fst (poll_op s)) = sfields s.
Proof.
  unfold poll_op. destruct (fst (opened s)); [reflexivity|].
  destruct (snd (opened s)); [reflexivity|]. destruct (events s); reflexivity.
Qed.
Lemma stopped_op_state id s : fst (stopped_op id s) = s.
Proof.
  unfold stopped_op. destruct (alookup id (sendm s)) as [[|sd]|]; try reflexivity.
  destruct (s_stop sd); reflexivity.
Qed.
Lemma note_tx_sfields r s : sfields (note_tx r s) = sfields s.
Proof. destruct r as [c|[|]]; reflexivity. Qed.

Lemma flow_step_core_Inv11 s op s' o id l :
  Inv11 s -> FlowRecv.step_core true s op = Some (s', o, id, l) -> Inv11 s'.
Proof.
  exact (step_core_pres Inv11 op
           (fun i x Ix => Inv11_sfields x (see i x) Ix eq_refl)
           (fun r x Ix => Inv11_sfields _ _ Ix (note_tx_sfields r x))
           (fun i off len fin _ => received_Inv11 i off len)
           received_reset_Inv11 read_op_Inv11 stop_op_Inv11 rreset_op_Inv11
           (fun w x Ix => Inv11_sfields _ _ Ix (set_window_op_sfields w x))
           (fun a b c x Ix => Inv11_sfields _ _ Ix (control_op_sfields a b c x))
           (fun d x Hd Ix => open_op_Inv11 d x Hd Ix)
           (fun d x Ix => Inv11_sfields _ _ Ix (accept_op_sfields d x))
           sreset_op_Inv11 reset_acked_op_Inv11 s s' o id l).
Qed.

Lemma step_Inv11 s op : Inv11 s -> Inv11 (fst (StreamSM.step s op)).
Proof.
  intro I. unfold StreamSM.step.
  destruct (StreamSM.step_core s op) as [[[[s' o] id] l]|] eqn:H; [|exact I]. cbn [fst].
  unfold StreamSM.step_core in H.
  destruct op as [|c a]; [discriminate|].
  destruct (c =? 10).
  { destruct a as [|x1 [|x2 [|]]]; try discriminate.
    apply some_let in H. inversion H. apply write_op_Inv11, I. }
  destruct (c =? 11).
  { destruct a as [|x1 [|]]; try discriminate.
    apply some_let in H. inversion H. apply finish_op_Inv11, I. }
  destruct (c =? 13).
  { destruct a as [|x1 [|]]; try discriminate.
    apply some_let in H. inversion H. rewrite stopped_op_state. exact I. }
  destruct (c =? 14).
  { destruct a as [|x1 [|x2 [|]]]; try discriminate.
    apply some_let in H. inversion H. apply stop_sending_op_Inv11, I. }
  destruct (c =? 15).
  { destruct a; try discriminate.
    pose proof (flush_op_Inv11 s I) as I2. destruct (flush_op s) as [[s2 r] l2].
    inversion H; subst. exact I2. }
  destruct (c =? 16).
  { destruct a as [|x1 [|]]; try discriminate.
    apply some_let in H. inversion H. apply log_op_Inv11, I. }
  destruct (c =? 19).
  { destruct a as [|x1 [|]]; try discriminate.
    apply some_let in H. inversion H. apply log_op_Inv11, I. }
  destruct (c =? 18).
  { destruct a; try discriminate.
    apply some_let in H. inversion H. exact (Inv11_sfields _ _ I (poll_op_sfields s)). }
  exact (flow_step_core_Inv11 _ _ _ _ _ _ I H).
Qed.

Lemma reach_Inv11 sd mru mrb rw srw pmb pmu i s :
  (sd = 0 \/ sd = 1) -> reach_sm [0; sd; mru; mrb; rw; srw; pmb; pmu] i = Some s -> Inv11 s.
Proof.
  intros Hs H. unfold reach_sm in H. inversion H; subst; clear H.
  apply (run_from_pres Inv11 (fun _ => True)); [|apply init_Inv11, Hs|].
  - intros x op Ix _. apply step_Inv11, Ix.
  - apply Forall_forall. auto.
Qed.
