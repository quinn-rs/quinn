(** Proofs about Model/PathSM.v: the invariant of the path state machine and the single-step
    facts the C15 theorems are made of. *)
From QV Require Import Lib.Tac Lib.Chk Lib.Corr Proofs.ChkProofs Proofs.RunInduction gen.Constants.
From QV Require Import Model.PathSM.
From QV Require Proofs.AntiAmpProofs.
Module AAP := QV.Proofs.AntiAmpProofs.
Open Scope Z_scope.

Definition op_wf (mtu : Z) (o : op) : Prop :=
  match o with
  | Datagram d => 0 <= d_size d
  | Timeout _ => True
  | Transmit seg max ds => 0 <= seg <= mtu /\ AAP.ds_ok seg ds 0
  end.

(** [last_valid] is a ghost; while unvalidated, [prev] is the path to fall back on *)
Definition Inv (s : st) : Prop :=
  (challenge (cur s) = None <-> validated (cur s) = true) /\
  (validated (cur s) = true ->
     last_valid s = remote (cur s) /\ timer s = None /\ forall p, prev s = Some p -> pending p = false) /\
  (validated (cur s) = false ->
     timer s <> None /\ exists p, prev s = Some p /\ validated p = true /\ remote p = last_valid s) /\
  (forall q, In q (seen s) -> q <= rx_packet s).

(** while the current path is unvalidated its counters are the result of a C07 history that
    started from a fresh path *)
Definition Hist (mtu : Z) (s : st) : Prop :=
  validated (cur s) = false ->
  exists h, Forall (AAP.op_wf mtu) h /\ AA.steps (AA.fresh false) h = Some (aa (cur s)).

Lemma init_inv srv mig a : Inv (init srv mig a).
Proof.
  unfold Inv, init, validated. cbn. repeat split; intros; try reflexivity; try discriminate; try contradiction.
Qed.

Lemma hist_validated mtu s : validated (cur s) = true -> Hist mtu s.
Proof. intros E Hv. congruence. Qed.

Lemma init_hist mtu srv mig a : Hist mtu (init srv mig a).
Proof. apply hist_validated. reflexivity. Qed.

(** the invariant only reads [validated], [challenge] and [remote] of the current path *)
Lemma Inv_cur s s' :
  validated (cur s') = validated (cur s) -> challenge (cur s') = challenge (cur s) ->
  remote (cur s') = remote (cur s) ->
  prev s' = prev s -> timer s' = timer s -> seen s' = seen s ->
  rx_packet s' = rx_packet s -> last_valid s' = last_valid s -> Inv s -> Inv s'.
Proof. intros E0 E1 E1' E2 E3 E4 E5 E6 H. unfold Inv. rewrite E0, E1, E1', E2, E3, E4, E5, E6. exact H. Qed.

Lemma inv_chal_none s : Inv s -> challenge (cur s) = None -> validated (cur s) = true.
Proof. intros (I1 & _) H. apply I1. exact H. Qed.

Lemma inv_chal_some s t : Inv s -> challenge (cur s) = Some t -> validated (cur s) = false.
Proof.
  intros (I1 & _) H. destruct (validated (cur s)) eqn:E; [|reflexivity].
  destruct I1 as [_ I1]. rewrite (I1 eq_refl) in H. discriminate.
Qed.

Lemma inv_timer s dl : Inv s -> timer s = Some dl -> validated (cur s) = false.
Proof.
  intros (_ & I2 & _) H. destruct (validated (cur s)) eqn:E; [|reflexivity].
  destruct (I2 eq_refl) as (_ & Hn & _). congruence.
Qed.

Lemma inv_unvalidated s :
  Inv s -> validated (cur s) = false ->
  timer s <> None /\ exists p, prev s = Some p /\ validated p = true /\ remote p = last_valid s.
Proof. intros (_ & _ & I3 & _) H. exact (I3 H). Qed.

Lemma steps_cons s o l :
  steps s (o :: l) = match step s o with Some r => steps (fst r) l | None => None end.
Proof. cbn [steps]. destruct (step s o) as [[s1 out]|]; reflexivity. Qed.

Lemma steps_invariant (Q : op -> Prop) (P : st -> Prop) :
  (forall s o s' out, Q o -> P s -> step s o = Some (s', out) -> P s') ->
  forall l s s', Forall Q l -> P s -> steps s l = Some s' -> P s'.
Proof.
  intro Hstep. apply (run_invariant step fst steps (fun s => eq_refl) steps_cons).
  intros s o Ho HP.
  destruct (step s o) as [[s1 out]|] eqn:E; [exact (Hstep s o s1 out Ho HP E)|exact I].
Qed.

(** suffix [0]: no well-formedness of sizes needed *)
Lemma steps_invariant0 (P : st -> Prop) :
  (forall s o s' out, P s -> step s o = Some (s', out) -> P s') ->
  forall l s s', P s -> steps s l = Some s' -> P s'.
Proof.
  intros Hstep l s s'. apply (steps_invariant (fun _ => True)); [|apply Forall_forall; trivial].
  intros s0 o s1 out _. apply Hstep.
Qed.

Definition with_resps (s : st) (r : PR.t) : st :=
  mk (server s) (migration s) (cur s) (prev s) (counter s) (timer s) (rx_packet s) (seen s) r
     (last_valid s).

Definition validate (s : st) : st :=
  mk (server s) (migration s) (set_validated (cur s))
     (match prev s with Some p => Some (clear_challenge p) | None => None end)
     (counter s) None (rx_packet s) (seen s) (resps s) (remote (cur s)).

Lemma with_resps_same s : exists r, s = with_resps s r.
Proof. exists (resps s). destruct s; reflexivity. Qed.

Lemma response_elsewhere_changes_nothing from pn s tok :
  (from <> remote (cur s) \/ challenge (cur s) <> Some tok) ->
  process_frame from pn s (FResponse tok) = s.
Proof.
  intro H. cbn [process_frame]. destruct (challenge (cur s)) as [t|]; [|reflexivity].
  destruct ((t =? tok) && (from =? remote (cur s))) eqn:Em; [|reflexivity].
  exfalso. destruct H as [H|H]; [lia|apply H; f_equal; lia].
Qed.

Lemma matching_response_validates from pn s tok :
  challenge (cur s) = Some tok -> from = remote (cur s) ->
  let s' := process_frame from pn s (FResponse tok) in
  validated (cur s') = true /\ challenge (cur s') = None /\ timer s' = None /\
  remote (cur s') = remote (cur s) /\ last_valid s' = remote (cur s).
Proof.
  intros Hc Hf. cbn [process_frame]. rewrite Hc, Hf, !Z.eqb_refl. cbn. repeat split.
Qed.

Lemma process_frame_cases from pn s f :
  ((exists r, process_frame from pn s f = with_resps s r) /\
   forall tok, f = FResponse tok -> challenge (cur s) = Some tok -> from <> remote (cur s))
  \/ (process_frame from pn s f = validate s /\
      exists tok, f = FResponse tok /\ challenge (cur s) = Some tok /\ from = remote (cur s)).
Proof.
  destruct f as [|tok|tok|]; cbn [process_frame].
  - left. split; [apply with_resps_same|discriminate].
  - left. split; [eexists; reflexivity|discriminate].
  - destruct (challenge (cur s)) as [t|]; [|left; split; [apply with_resps_same|discriminate]].
    destruct ((t =? tok) && (from =? remote (cur s))) eqn:Em.
    + right. split; [reflexivity|]. exists tok. repeat split; [f_equal|]; lia.
    + left. split; [apply with_resps_same|]. intros tok' Ef Hc. inversion Ef. inversion Hc. lia.
  - left. split; [apply with_resps_same|discriminate].
Qed.

(** after the matching response no later frame can undo the validation: the challenge is gone *)
Lemma fold_frames_cases from pn fs : forall s, exists r,
  (fold_left (process_frame from pn) fs s = with_resps s r /\
   forall tok, In (FResponse tok) fs -> challenge (cur s) = Some tok -> from <> remote (cur s))
  \/ (fold_left (process_frame from pn) fs s = with_resps (validate s) r /\
      exists tok, In (FResponse tok) fs /\ challenge (cur s) = Some tok /\ from = remote (cur s)).
Proof.
  induction fs as [|f fs IH]; intro s; cbn [fold_left].
  - destruct (with_resps_same s) as [r E]. exists r. left. split; [exact E|contradiction].
  - destruct (process_frame_cases from pn s f) as [[[r1 E1] N1]|[E1 (tok & Ef & Hc & Hf)]]; rewrite E1.
    + destruct (IH (with_resps s r1)) as [r [[E N]|[E (tok & Hin & Hc & Hf)]]]; exists r; rewrite E.
      * left. split; [reflexivity|]. intros tok [Hhd|Hin]; [apply N1; exact Hhd|apply N; exact Hin].
      * right. split; [reflexivity|]. exists tok. split; [right; exact Hin|split; assumption].
    + destruct (IH (validate s)) as [r [[E _]|[_ (tok' & _ & Hc' & _)]]]; [|discriminate Hc'].
      exists r. right. split; [exact E|]. exists tok. split; [left; exact Ef|split; assumption].
Qed.

Lemma clear_challenge_validated p : validated (clear_challenge p) = validated p.
Proof. reflexivity. Qed.

Lemma validate_inv s : Inv s -> Inv (validate s).
Proof.
  intros (I1 & I2 & I3 & I4). unfold Inv, validated. cbn. split; [split; reflexivity|].
  split; [intros _; split; [reflexivity|split; [reflexivity|]]|].
  { intros p Hp. destruct (prev s) as [q|]; [|discriminate]. inversion Hp; subst. reflexivity. }
  split; [discriminate|]. exact I4.
Qed.

Lemma migrate_shape s d :
  let s' := migrate s d in
  remote (cur s') = d_from d /\ aa (cur s') = AA.fresh false /\ validated (cur s') = false /\
  challenge (cur s') = Some (d_tok_new d) /\ pending (cur s') = true /\
  timer s' = Some (d_now d + 3 * Z.max (d_pto_new d) (d_pto_prev d)) /\
  last_valid s' = last_valid s /\
  prev s' = (match challenge (cur s) with
             | None => Some (mkp (remote (cur s)) (aa (cur s)) (Some (d_tok_prev d)) true (gen (cur s)))
             | Some _ => prev s end).
Proof. cbn. repeat split. Qed.

Lemma migrate_inv s d : Inv s -> Inv (migrate s d).
Proof.
  intros HI. pose proof HI as (I1 & I2 & I3 & I4). unfold Inv, migrate, validated. cbn.
  split; [split; discriminate|]. split; [discriminate|]. split; [|exact I4].
  intros _. split; [discriminate|].
  destruct (challenge (cur s)) as [t|] eqn:Ec.
  - pose proof (inv_chal_some s t HI Ec) as Hv.
    destruct (I3 Hv) as (_ & p & Hp & Hpv & Hpr). exists p. repeat split; assumption.
  - pose proof (inv_chal_none s HI Ec) as Hv.
    destruct (I2 Hv) as (Hl & _). eexists. split; [reflexivity|]. unfold validated. cbn. split; [exact Hv|]. symmetry. exact Hl.
Qed.

Lemma migrate_hist mtu s d : Hist mtu (migrate s d).
Proof. intros _. exists []. split; [constructor|reflexivity]. Qed.

Definition accepted (s : st) (d : dgram) : bool :=
  d_auth d && negb (d_old d || memz (d_pn d) (seen s)).

Definition accept (s : st) (d : dgram) : st :=
  mk (server s) (migration s) (cur s) (prev s) (counter s) (timer s)
     (if rx_packet s <=? d_pn d then d_pn d else rx_packet s) (d_pn d :: seen s) (resps s)
     (last_valid s).

Definition frames (s : st) (d : dgram) : st :=
  fold_left (process_frame (d_from d) (d_pn d)) (d_frames d) (accept s d).

Definition moves (s : st) (d : dgram) : bool :=
  negb (d_from d =? remote (cur s)) && negb (all_probing (d_frames d)) && (rx_packet s <=? d_pn d).

Lemma memz_In x l : memz x l = true <-> In x l.
Proof.
  induction l as [|y l IH]; cbn [memz In]; [split; [discriminate|contradiction]|].
  rewrite orb_true_iff, IH. split; intros [H|H]; auto; [left; lia|left; subst; lia].
Qed.

Lemma accepted_true s d :
  accepted s d = true <-> d_auth d = true /\ d_old d = false /\ memz (d_pn d) (seen s) = false.
Proof.
  unfold accepted. rewrite andb_true_iff, negb_true_iff, orb_false_iff. reflexivity.
Qed.

Lemma moves_true s d :
  moves s d = true <->
  d_from d <> remote (cur s) /\ all_probing (d_frames d) = false /\ rx_packet s <= d_pn d.
Proof.
  unfold moves. rewrite !andb_true_iff, !negb_true_iff, Z.eqb_neq, Z.leb_le. tauto.
Qed.

Lemma frames_cases s d : exists r,
  (frames s d = with_resps (accept s d) r /\
   forall tok, In (FResponse tok) (d_frames d) -> challenge (cur s) = Some tok -> d_from d <> remote (cur s))
  \/ (frames s d = with_resps (validate (accept s d)) r /\
      exists tok, In (FResponse tok) (d_frames d) /\ challenge (cur s) = Some tok /\ d_from d = remote (cur s)).
Proof. exact (fold_frames_cases (d_from d) (d_pn d) (d_frames d) (accept s d)). Qed.

Lemma frames_keeps s d :
  server (frames s d) = server s /\ migration (frames s d) = migration s /\
  remote (cur (frames s d)) = remote (cur s) /\ seen (frames s d) = d_pn d :: seen s /\
  rx_packet (frames s d) = (if rx_packet s <=? d_pn d then d_pn d else rx_packet s).
Proof. destruct (frames_cases s d) as [r [[-> _]|[-> _]]]; repeat split. Qed.

Lemma handle_packet_eq s d :
  handle_packet s d =
  if accepted s d then (if moves s d then migrate (frames s d) d else frames s d) else s.
Proof.
  destruct (frames_keeps s d) as (_ & _ & Hr & _ & Hrx).
  unfold handle_packet, accepted, moves. cbv zeta. fold (accept s d). fold (frames s d).
  rewrite Hr, Hrx.
  destruct (d_auth d); [|reflexivity]. destruct (d_old d || memz (d_pn d) (seen s)); [reflexivity|].
  cbn [negb andb].
  destruct (rx_packet s <=? d_pn d) eqn:E;
    [rewrite Z.eqb_refl|replace (d_pn d =? rx_packet s) with false by lia]; reflexivity.
Qed.

Lemma accept_inv s d : Inv s -> Inv (accept s d).
Proof.
  intros (I1 & I2 & I3 & I4). unfold Inv. cbn [accept cur prev timer seen rx_packet last_valid].
  split; [exact I1|]. split; [exact I2|]. split; [exact I3|].
  intros q [Hq|Hq]; destruct (rx_packet s <=? d_pn d) eqn:E; try (specialize (I4 q Hq)); lia.
Qed.

Lemma handle_packet_inv s d : Inv s -> Inv (handle_packet s d).
Proof.
  intro H. rewrite handle_packet_eq. destruct (accepted s d); [|exact H].
  assert (Inv (frames s d)) as H2.
  { apply (accept_inv s d) in H. destruct (frames_cases s d) as [r [[-> _]|[-> _]]].
    - apply (Inv_cur (accept s d)); try reflexivity. exact H.
    - apply (Inv_cur (validate (accept s d))); try reflexivity. apply validate_inv. exact H. }
  destruct (moves s d); [apply migrate_inv|]; exact H2.
Qed.

Lemma handle_packet_hist mtu s d : Hist mtu s -> Hist mtu (handle_packet s d).
Proof.
  intro H. rewrite handle_packet_eq. destruct (accepted s d); [|exact H].
  destruct (moves s d); [apply migrate_hist|].
  destruct (frames_cases s d) as [r [[-> _]|[-> _]]]; [exact H|apply hist_validated; reflexivity].
Qed.

(** [s] before the packet, [s1] after it *)
Definition credited (s s1 : st) (d : dgram) : st :=
  if d_from d =? remote (cur s) then credit s1 (d_size d) else s1.

Lemma credited_keeps s s1 d :
  remote (cur (credited s s1 d)) = remote (cur s1) /\
  validated (cur (credited s s1 d)) = validated (cur s1) /\ timer (credited s s1 d) = timer s1.
Proof. unfold credited. destruct (d_from d =? remote (cur s)); repeat split. Qed.

Definition stays (s : st) (d : dgram) : st :=
  credited s (if accepted s d then frames s d else s) d.

Lemma handle_datagram_eq s d :
  handle_datagram s d =
  if negb (d_from d =? remote (cur s)) && negb (may_migrate s) then s
  else if accepted s d && moves s d then credit (migrate (frames s d) d) (d_size d)
  else stays s d.
Proof.
  unfold handle_datagram, stays, credited.
  destruct (negb (d_from d =? remote (cur s)) && negb (may_migrate s)); [reflexivity|].
  rewrite handle_packet_eq. destruct (accepted s d); [|reflexivity].
  destruct (frames_keeps s d) as (_ & _ & Hr & _).
  destruct (moves s d); cbn [andb]; [|rewrite Hr; reflexivity].
  cbn [migrate cur remote]. rewrite Z.eqb_refl. reflexivity.
Qed.

Lemma stays_cases s d :
  remote (cur (stays s d)) = remote (cur s) /\
  ((validated (cur (stays s d)) = validated (cur s) /\ timer (stays s d) = timer s)
   \/ (accepted s d = true /\
       (exists tok, In (FResponse tok) (d_frames d) /\ challenge (cur s) = Some tok /\ d_from d = remote (cur s)) /\
       validated (cur (stays s d)) = true /\ timer (stays s d) = None)).
Proof.
  unfold stays. destruct (credited_keeps s (if accepted s d then frames s d else s) d) as (-> & -> & ->).
  destruct (accepted s d); [|split; [|left; split]; reflexivity].
  destruct (frames_cases s d) as [r [[-> _]|[-> Hx]]].
  - split; [|left; split]; reflexivity.
  - split; [reflexivity|]. right. repeat split. exact Hx.
Qed.

Lemma handle_datagram_cases s d :
  handle_datagram s d = s
  \/ (may_migrate s = true /\ accepted s d = true /\ moves s d = true /\
      handle_datagram s d = credit (migrate (frames s d) d) (d_size d))
  \/ handle_datagram s d = stays s d.
Proof.
  rewrite handle_datagram_eq.
  destruct (negb (d_from d =? remote (cur s)) && negb (may_migrate s)) eqn:Eg; [left; reflexivity|].
  destruct (accepted s d), (moves s d) eqn:Em; cbn [andb]; auto.
  right. left. apply moves_true in Em as [Ef _]. repeat split.
  destruct (may_migrate s); [reflexivity|lia].
Qed.

Lemma handle_datagram_elim (P : st -> Prop) s d :
  (forall s1, P s1 -> P (credit s1 (d_size d))) -> P s -> P (handle_packet s d) -> P (handle_datagram s d).
Proof.
  intros Hc H0 H1. unfold handle_datagram.
  destruct (negb (d_from d =? remote (cur s)) && negb (may_migrate s)); [exact H0|].
  destruct (d_from d =? remote (cur (handle_packet s d))); [apply Hc|]; exact H1.
Qed.

Lemma credit_inv s n : Inv s -> Inv (credit s n).
Proof. apply (Inv_cur s); reflexivity. Qed.

Lemma credit_hist mtu s n : 0 <= n -> Hist mtu s -> Hist mtu (credit s n).
Proof.
  intros Hn H Hv. unfold credit, validated in Hv. cbn in Hv. destruct (H Hv) as (h & Hwf & Hs).
  exists (h ++ [[1; n]]). split.
  - apply Forall_app. split; [exact Hwf|]. constructor; [|constructor]. exact Hn.
  - rewrite (AAP.steps_snoc _ _ _ _ Hs). reflexivity.
Qed.

Lemma handle_datagram_inv s d : Inv s -> Inv (handle_datagram s d).
Proof.
  intro H. apply handle_datagram_elim; [intro s1; apply credit_inv|exact H|apply handle_packet_inv; exact H].
Qed.

Lemma handle_datagram_hist mtu s d : 0 <= d_size d -> Hist mtu s -> Hist mtu (handle_datagram s d).
Proof.
  intros Hn H.
  apply handle_datagram_elim; [intro s1; apply credit_hist; exact Hn|exact H|apply handle_packet_hist; exact H].
Qed.

Lemma handle_timeout_cases s now :
  handle_timeout s now = s \/
  exists dl, timer s = Some dl /\ dl <= now /\
    handle_timeout s now =
    mk (server s) (migration s) (clear_challenge (match prev s with Some p => p | None => cur s end))
       None (counter s) None (rx_packet s) (seen s) (resps s) (last_valid s).
Proof.
  unfold handle_timeout. destruct (timer s) as [dl|]; [|left; reflexivity].
  destruct (dl <=? now) eqn:E; [|left; reflexivity]. right. exists dl. repeat split. lia.
Qed.

(** [prev_path] holds the most recently validated path: the fallback *)
Lemma timeout_reverts s now dl :
  Inv s -> timer s = Some dl -> dl <= now ->
  let s' := handle_timeout s now in
  validated (cur s) = false /\
  remote (cur s') = last_valid s /\ validated (cur s') = true /\ challenge (cur s') = None /\
  prev s' = None /\ timer s' = None /\ last_valid s' = last_valid s /\
  exists p, prev s = Some p /\ cur s' = clear_challenge p.
Proof.
  intros HI Ht Hle.
  pose proof (inv_timer s dl HI Ht) as Hv.
  destruct (inv_unvalidated s HI Hv) as (_ & p & Hp & Hpv & Hpr).
  unfold handle_timeout. rewrite Ht. replace (dl <=? now) with true by lia. rewrite Hp. cbn.
  repeat split; try assumption. exists p. split; reflexivity.
Qed.

Lemma handle_timeout_inv s now : Inv s -> Inv (handle_timeout s now).
Proof.
  intros H. destruct (handle_timeout_cases s now) as [->|(dl & Et & _ & ->)]; [exact H|].
  destruct (inv_unvalidated s H (inv_timer s dl H Et)) as (_ & p & -> & Hpv & Hpr).
  destruct H as (_ & _ & _ & I4). unfold Inv, validated in *. cbn.
  split; [split; intros _; [exact Hpv|reflexivity]|].
  split; [intros _; split; [symmetry; exact Hpr|split; [reflexivity|discriminate]]|].
  split; [congruence|exact I4].
Qed.

Lemma handle_timeout_hist mtu s now : Inv s -> Hist mtu s -> Hist mtu (handle_timeout s now).
Proof.
  intros HI H. destruct (handle_timeout_cases s now) as [->|(dl & Et & Hle & _)]; [exact H|].
  apply hist_validated. apply (timeout_reverts s now dl HI Et Hle).
Qed.

Definition polled (s : st) (a' : AA.st) : st :=
  mk (server s) (migration s) (set_pending (set_aa (cur s) a') false) (prev s) (counter s) (timer s)
     (rx_packet s) (seen s) (fst (PR.pop_on_path (resps s) (remote (cur s)))) (last_valid s).

(** [poll_transmit] past [send_path_challenge] *)
Definition main_outcome (s : st) (seg max : Z) (ds : list Z) (s' : st) (out : list (Z * Z)) : Prop :=
  (s' = s /\ out = [])
  \/ (exists tok a r', PR.pop_off_path (resps s) (remote (cur s)) = (r', Some (tok, a)) /\
        out = [(a, MIN_INITIAL_SIZE)] /\ s' = with_resps s r')
  \/ (exists a' n t, AA.poll (aa (cur s)) seg max ds = Some (a', n, t) /\
        out = [(remote (cur s), t)] /\ s' = polled s a').

Lemma transmit_main_cases s seg max ds s' out :
  transmit_main s seg max ds = Some (s', out) -> main_outcome s seg max ds s' out.
Proof.
  intro H. unfold main_outcome. unfold transmit_main in H.
  destruct ds as [|d0 ds']; [inversion H; left; split; reflexivity|].
  destruct (AA.blocked (aa (cur s)) 1) as [b|]; cbn [obind] in H; [|discriminate].
  destruct b; [inversion H; left; split; reflexivity|].
  destruct (PR.pop_off_path (resps s) (remote (cur s))) as [r' [[tk a]|]].
  - inversion H. right. left. exists tk, a, r'. repeat split.
  - destruct (AA.poll (aa (cur s)) seg max (d0 :: ds')) as [[[a' n] t]|]; cbn [obind] in H; [|discriminate].
    inversion H. right. right. exists a', n, t. repeat split.
Qed.

Lemma transmit_cases s seg max ds s' out :
  transmit s seg max ds = Some (s', out) ->
  main_outcome s seg max ds s' out
  \/ (exists p, prev s = Some p /\ pending p = true /\ out = [(remote p, MIN_INITIAL_SIZE)] /\
        s' = mk (server s) (migration s) (cur s) (Some (set_pending p false)) (counter s) (timer s)
                (rx_packet s) (seen s) (resps s) (last_valid s)).
Proof.
  intro H. unfold transmit in H.
  destruct (prev s) as [p|]; [|left; apply transmit_main_cases; exact H].
  destruct (pending p) eqn:Ep; [|left; apply transmit_main_cases; exact H].
  right. exists p. inversion H. repeat split. exact Ep.
Qed.

Lemma transmit_preserves s seg max ds s' out :
  transmit s seg max ds = Some (s', out) ->
  (server s' = server s /\ migration s' = migration s /\ seen s' = seen s /\
   validated (cur s') = validated (cur s) /\ timer s' = timer s /\ remote (cur s') = remote (cur s) /\
   last_valid s' = last_valid s /\ challenge (cur s') = challenge (cur s)) /\
  (Inv s -> Inv s') /\
  (forall mtu, 0 <= seg <= mtu -> AAP.ds_ok seg ds 0 -> Hist mtu s -> Hist mtu s').
Proof.
  intro H.
  destruct (transmit_cases _ _ _ _ _ _ H) as [[[-> _]|[(tok & a & r' & _ & _ & ->)|(a' & n & t & Ep & _ & ->)]]|(p & Ep & Epd & _ & ->)].
  - split; [repeat split|]. split; [|intros mtu _ _]; trivial.
  - split; [repeat split|]. split; [apply Inv_cur; reflexivity|intros mtu _ _ HH; exact HH].
  - assert (validated (cur (polled s a')) = validated (cur s)) as Ev.
    { destruct (AAP.poll_some _ _ _ _ _ _ _ Ep) as [_ ->]. reflexivity. }
    split; [repeat split; exact Ev|]. split; [apply Inv_cur; try reflexivity; exact Ev|].
    intros mtu Hseg Hok HH Hv. rewrite Ev in Hv. destruct (HH Hv) as (h & Hwf & Hs).
    exists (h ++ [6 :: seg :: max :: ds]). split.
    + apply Forall_app. split; [exact Hwf|]. constructor; [|constructor].
      change (0 <= seg <= mtu /\ AAP.ds_ok seg ds 0). split; assumption.
    + rewrite (AAP.steps_snoc _ _ _ _ Hs), (AAP.step_poll _ _ _ _ _ Ep). reflexivity.
  - split; [repeat split|]. split; [|intros mtu _ _ HH; exact HH].
    intros (I1 & I2 & I3 & I4). unfold Inv. cbn [cur prev timer seen rx_packet last_valid].
    split; [exact I1|]. split; [|split; [|exact I4]].
    + intro Hv. destruct (I2 Hv) as (Hl & Hn & _). split; [exact Hl|split; [exact Hn|]].
      intros q Hq. inversion Hq; subst. reflexivity.
    + intro Hv. destruct (I3 Hv) as (Hn & p' & Hp' & Hpv & Hpr). split; [exact Hn|].
      rewrite Ep in Hp'. inversion Hp'; subst.
      exists (set_pending p' false). repeat split; assumption.
Qed.

Lemma step_inv0 s o s' out : Inv s -> step s o = Some (s', out) -> Inv s'.
Proof.
  intros HI Hs. destruct o as [d|now|seg max ds]; cbn [step] in Hs.
  - inversion Hs; subst. apply handle_datagram_inv; exact HI.
  - inversion Hs; subst. apply handle_timeout_inv; exact HI.
  - exact (proj1 (proj2 (transmit_preserves _ _ _ _ _ _ Hs)) HI).
Qed.

Lemma steps_inv0 l s s' : Inv s -> steps s l = Some s' -> Inv s'.
Proof. apply steps_invariant0. exact step_inv0. Qed.

Lemma step_inv mtu s o s' out :
  op_wf mtu o -> Inv s /\ Hist mtu s -> step s o = Some (s', out) -> Inv s' /\ Hist mtu s'.
Proof.
  intros Hwf [HI HH] Hs. split; [exact (step_inv0 _ _ _ _ HI Hs)|].
  destruct o as [d|now|seg max ds]; cbn [step op_wf] in *.
  - inversion Hs; subst. apply handle_datagram_hist; assumption.
  - inversion Hs; subst. apply handle_timeout_hist; assumption.
  - destruct Hwf as [Hseg Hok]. exact (proj2 (proj2 (transmit_preserves _ _ _ _ _ _ Hs)) mtu Hseg Hok HH).
Qed.

Lemma steps_inv mtu l s s' :
  Forall (op_wf mtu) l -> Inv s /\ Hist mtu s -> steps s l = Some s' -> Inv s' /\ Hist mtu s'.
Proof.
  apply (steps_invariant (op_wf mtu) (fun s => Inv s /\ Hist mtu s)). intros s0 o s1 out. apply step_inv.
Qed.

Lemma reachable_inv mtu srv mig a l s :
  Forall (op_wf mtu) l -> steps (init srv mig a) l = Some s -> Inv s /\ Hist mtu s.
Proof.
  intros Hwf Hs. eapply steps_inv; [exact Hwf| |exact Hs]. split; [apply init_inv|apply init_hist].
Qed.

Theorem non_migrating_ignores_strangers s d :
  may_migrate s = false -> d_from d <> remote (cur s) -> step s (Datagram d) = Some (s, []).
Proof.
  intros Hm Hf. cbn [step]. unfold handle_datagram. rewrite Hm.
  replace (d_from d =? remote (cur s)) with false by lia. reflexivity.
Qed.

Lemma handle_packet_keeps s d :
  server (handle_packet s d) = server s /\ migration (handle_packet s d) = migration s /\
  seen (handle_packet s d) = if accepted s d then d_pn d :: seen s else seen s.
Proof.
  rewrite handle_packet_eq. destruct (accepted s d); [|repeat split].
  destruct (frames_keeps s d) as (Hsv & Hmg & _ & Hs & _). destruct (moves s d); repeat split; assumption.
Qed.

Lemma step_keeps s o s' out :
  step s o = Some (s', out) ->
  server s' = server s /\ migration s' = migration s /\ forall q, In q (seen s) -> In q (seen s').
Proof.
  intro Hs. destruct o as [d|now|seg max ds]; cbn [step] in Hs.
  - inversion Hs; subst. apply handle_datagram_elim; [intros s1 H; exact H|repeat split; trivial|].
    destruct (handle_packet_keeps s d) as (-> & -> & ->). repeat split.
    intros q Hq. destruct (accepted s d); [right|]; exact Hq.
  - inversion Hs; subst. destruct (handle_timeout_cases s now) as [->|(dl & _ & _ & ->)]; repeat split; trivial.
  - destruct (transmit_preserves _ _ _ _ _ _ Hs) as [(E1 & E2 & E3 & _) _]. rewrite E3. repeat split; trivial.
Qed.

Lemma step_may_migrate s o s' out : step s o = Some (s', out) -> may_migrate s' = may_migrate s.
Proof.
  intro Hs. destruct (step_keeps _ _ _ _ Hs) as (E1 & E2 & _). unfold may_migrate. rewrite E1, E2. reflexivity.
Qed.

Lemma may_migrate_const l : forall s s', steps s l = Some s' -> may_migrate s' = may_migrate s.
Proof.
  intros s s'. apply (steps_invariant0 (fun s' => may_migrate s' = may_migrate s)); [|reflexivity].
  intros s0 o s1 out H Hs. rewrite (step_may_migrate _ _ _ _ Hs). exact H.
Qed.
