(** Lifecycle: the invariant; every operation in normal form. *)
From QV Require Import Lib.Tac Lib.Corr Model.Lifecycle.
Open Scope Z_scope.

Definition Inv (s : state) : Prop :=
  (error s <> None -> is_closed (st s) = true) /\
  (is_closed (st s) = true -> t_idle s = None /\ t_ka s = None) /\
  (is_closing (st s) = true -> t_close s <> None) /\
  (is_closing (st s) = false -> t_close s = None) /\
  (epq s = 0 \/ epq s = 1 /\ st s = Drained) /\
  (is_closed (st s) = false -> close s = false).

(** fields of explicit record / setter terms, in the goal *)
Ltac fields :=
  cbn [st close error epq t_close t_idle t_ka permit_idle_reset idle_timeout cfg_idle cfg_ka
       set_st set_close set_error set_epq set_t_close set_t_idle set_t_ka set_permit
       set_idle_timeout close_common set_close_timer kill fst snd
       is_closed is_closing is_drained is_established is_handshake negb andb orb].

Lemma phase_cases : forall c, is_closed c = false \/ is_closing c = true \/ is_drained c = true.
Proof. destruct c; auto. Qed.

Lemma closed_split : forall c, is_closed c = is_closing c || is_drained c.
Proof. destruct c; reflexivity. Qed.

Lemma closing_closed : forall c, is_closing c = true -> is_closed c = true /\ is_drained c = false.
Proof. destruct c; intros C; try discriminate C; auto. Qed.

Lemma drained_closed : forall c, is_drained c = true -> is_closed c = true /\ is_closing c = false.
Proof. destruct c; intros C; try discriminate C; auto. Qed.

Lemma open_phase : forall c, is_closed c = false -> is_closing c = false /\ is_drained c = false.
Proof. destruct c; intros C; try discriminate C; auto. Qed.

Lemma inv_open : forall s, is_closed (st s) = false ->
  (Inv s <-> error s = None /\ t_close s = None /\ epq s = 0 /\ close s = false).
Proof.
  intros s. unfold Inv. destruct (st s), (error s); cbn [is_closed is_closing]; intros C;
    try discriminate C; intuition (try discriminate; try congruence).
Qed.

Lemma inv_closing : forall s, is_closing (st s) = true ->
  (Inv s <-> t_idle s = None /\ t_ka s = None /\ t_close s <> None /\ epq s = 0).
Proof.
  intros s. unfold Inv. destruct (st s); cbn [is_closed is_closing]; intros C;
    try discriminate C; intuition (try discriminate; try congruence).
Qed.

Lemma inv_drained : forall s, is_drained (st s) = true ->
  (Inv s <-> t_idle s = None /\ t_ka s = None /\ t_close s = None /\ (epq s = 0 \/ epq s = 1)).
Proof.
  intros s. unfold Inv. destruct (st s); cbn [is_closed is_closing is_drained]; intros C;
    try discriminate C; intuition (try discriminate; try congruence).
Qed.

Lemma inv_init : forall i k, Inv (init i k).
Proof. intros. apply inv_open; cbn; auto. Qed.

Lemma open_no_error : forall s, Inv s -> is_closed (st s) = false -> error s = None.
Proof. intros s H C. apply (inv_open s C) in H. apply H. Qed.

Lemma inv_epq0 : forall s, Inv s -> is_drained (st s) = false -> epq s = 0.
Proof.
  intros s (_ & _ & _ & _ & [Q|[_ Q]] & _) D; [exact Q|]. rewrite Q in D. discriminate D.
Qed.

Definition ka_after (s : state) (now : Z) : option Z := t_ka (reset_keep_alive s now).
Definition idle_after (s : state) (now pto : Z) : option Z :=
  t_idle (reset_idle_timeout s now pto).

Lemma on_packet_authenticated_eq : forall s now pto,
  on_packet_authenticated s now pto =
  set_permit (set_t_idle (set_t_ka s (ka_after s now)) (idle_after s now pto)) true.
Proof. (* records have no eta: by cases on [s] *)
  intros [c cl er q tc ti tk pm it ci ck] now pto. destruct c, it, ck; reflexivity.
Qed.

Lemma on_sent_eq : forall s now a pto,
  on_sent s now a pto =
  set_permit (set_t_idle (set_t_ka s (ka_after s now))
                (if a && permit_idle_reset s then idle_after s now pto else t_idle s))
             (negb a && permit_idle_reset s).
Proof. intros [c cl er q tc ti tk pm it ci ck] now a pto. destruct a, pm, c, it, ck; reflexivity. Qed.

Lemma set_peer_params_eq : forall s p,
  set_peer_params s p =
  set_t_idle (set_idle_timeout s (negotiate (cfg_idle s) p))
             (match negotiate (cfg_idle s) p with None => None | Some _ => t_idle s end).
Proof.
  intros [c cl er q tc ti tk pm it ci ck] p. unfold set_peer_params. fields.
  destruct (negotiate ci p); reflexivity.
Qed.

Lemma idle_after_open : forall s now pto, is_closed (st s) = false ->
  idle_after s now pto =
  match idle_timeout s with Some i => Some (now + Z.max i (3 * pto)) | None => t_idle s end.
Proof.
  intros s now pto C. unfold idle_after, reset_idle_timeout. rewrite C.
  now destruct (idle_timeout s).
Qed.

(** the first half of [handle_packet] *)
Definition hp_post (s : state) (p : pkt) : state :=
  let '(s1, res) := process s p in
  match res with
  | Some e => set_st (set_error s1 (Some e)) (state_of_err e (st s1))
  | None => s1
  end.
Definition hp_close (s : state) (p : pkt) (same_remote : bool) : bool :=
  match p with
  | PDiscard => close s
  | _ => match st (hp_post s p) with Closed _ => same_remote | _ => close (hp_post s p) end
  end.

Definition hp_norm (s : state) (now : Z) (p : pkt) (pi pc : Z) (sr : bool) : state :=
  let c := st s in
  let c' := st (hp_post s p) in
  let au := negb (is_closed c) && authed p in
  let closes := is_closed c' && negb (is_closed c) in
  let drains := is_drained c' && negb (is_drained c) in
  {| st := c';
     close := hp_close s p sr;
     error := error (hp_post s p);
     epq := if drains then epq s + 1 else epq s;
     t_close := if drains then None else if closes then Some (now + 3 * pc) else t_close s;
     t_idle := if closes then None else if au then idle_after s now pi else t_idle s;
     t_ka := if closes then None else if au then ka_after s now else t_ka s;
     permit_idle_reset := au || permit_idle_reset s;
     idle_timeout := idle_timeout s; cfg_idle := cfg_idle s; cfg_ka := cfg_ka s |}.

Lemma handle_packet_eq : forall s now p pi pc sr,
  handle_packet s now p pi pc sr = hp_norm s now p pi pc sr.
Proof.
  intros s now p pi pc sr. unfold handle_packet. rewrite on_packet_authenticated_eq.
  destruct s as [c cl er q tc ti tk pm it ci ck].
  destruct p as [| | |r|r|code a| |].
  (* [PTransportError]: cases on the code and [a] *)
  6: unfold hp_norm, hp_close, hp_post; cbn [process state_of_err st set_st set_error];
     destruct (code =? AEAD_LIMIT_REACHED), a.
  all: destruct c; reflexivity.
Qed.

Lemma hp_closed : forall s p, is_closed (st s) = true -> err_result p = false ->
  error (hp_post s p) = error s /\ is_closed (st (hp_post s p)) = true /\
  is_closing (st (hp_post s p)) = is_closing (st s) /\
  is_drained (st (hp_post s p)) = is_drained (st s).
Proof.
  intros s p C G. unfold hp_post.
  destruct p, (st s) eqn:E; try discriminate C; try discriminate G;
    cbn [process]; rewrite ?E; fields; rewrite ?E; auto.
Qed.

Lemma hp_open_open : forall s p sr, is_closed (st s) = false ->
  is_closed (st (hp_post s p)) = false ->
  error (hp_post s p) = error s /\ hp_close s p sr = close s.
Proof.
  intros s p sr C. unfold hp_close, hp_post.
  destruct p as [| | |r|r|code a| |], (st s) eqn:E; try discriminate C;
    cbn [process state_of_err]; rewrite ?E; fields; rewrite ?E; auto; try discriminate;
    destruct (code =? AEAD_LIMIT_REACHED); discriminate.
Qed.

Lemma hp_err_timedout : forall s p, error (hp_post s p) = Some RTimedOut ->
  error s = Some RTimedOut.
Proof.
  intros s p. unfold hp_post.
  destruct p as [| | |r|r|code a| |]; cbn [process]; fields; auto; try discriminate.
  - destruct (is_handshake (st s)); auto.
  - destruct (st s), r; fields; auto; discriminate.
  - destruct (st s), r; fields; auto; discriminate.
  - destruct (is_handshake (st s)); fields; [discriminate|auto].
Qed.

Lemma handle_timeout_open : forall s now, Inv s -> is_closed (st s) = false ->
  handle_timeout s now =
  if expired (t_idle s) now then kill (set_t_idle s None) RTimedOut
  else if expired (t_ka s) now then set_t_ka s None else s.
Proof.
  intros s now H C. apply (inv_open s C) in H. destruct H as (_ & Tc & _).
  unfold handle_timeout. destruct (expired (t_idle s) now); [reflexivity|].
  cbv zeta. rewrite Tc. reflexivity.
Qed.

Lemma handle_timeout_closed : forall s now, Inv s -> is_closed (st s) = true ->
  handle_timeout s now =
  if expired (t_close s) now then set_epq (set_st (set_t_close s None) Drained) (epq s + 1)
  else s.
Proof.
  intros s now (_ & I2 & _) C. destruct (I2 C) as [Ti Tk].
  unfold handle_timeout. rewrite Ti. cbn [expired]. cbv zeta.
  destruct (expired (t_close s) now); fields; rewrite Tk; reflexivity.
Qed.

Inductive tx_case (s : state) (now : Z) (e : txenv) : state * out -> Prop :=
| tx_none : tx_case s now e (s, ONone)
| tx_kill : (conf e =? 2) = true -> is_drained (st s) = false ->
    tx_case s now e (kill s (RTransport AEAD_LIMIT_REACHED), ONone)
| tx_close : forall (served : bool) fr, is_closing (st s) = true ->
    tx_case s now e (if served then set_close s false else s, OTxClose fr)
| tx_data : is_closed (st s) = false -> data e = true ->
    tx_case s now e
      (on_sent (if conf e =? 1
                then close_inner s now (pto_tx e) (CTransport AEAD_LIMIT_REACHED) else s)
               now (ack_eliciting e) (pto_tx e), OOther).

Lemma transmit_cases : forall g s now e, tx_case s now e (poll_transmit_gen g s now e).
Proof.
  intros g s now e. unfold poll_transmit_gen.
  destruct (st s) eqn:C; [| | | |apply tx_none].
  1, 2: destruct (data e) eqn:Da; [|apply tx_none]; cbn [negb];
    destruct (amp_blocked e); [apply tx_none|];
    destruct (ack_eliciting e && gate_blocked e); [apply tx_none|];
    destruct (conf e =? 2) eqn:F; [apply tx_kill|apply tx_data]; rewrite ?C; auto.
  1, 2: destruct (negb (close s)); [apply tx_none|];
    destruct (amp_blocked e); [apply tx_none|];
    destruct (g && ack_eliciting e && gate_blocked e); [apply tx_none|];
    destruct (conf e =? 2) eqn:F; [apply tx_kill; rewrite ?C; auto|];
    destruct (close_spaces e) as [[|x sp] served]; [apply tx_none|];
    apply tx_close; rewrite C; reflexivity.
Qed.
