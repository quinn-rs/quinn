(** The C15 theorems about Model/PathSM.v (statements re-exported by Props/C15.v). *)
From QV Require Import Lib.Tac Lib.Chk Lib.Corr Proofs.ChkProofs gen.Constants.
From QV Require Import Model.PathSM Proofs.PathSMProofs.
From QV Require Proofs.AntiAmpProofs.
Open Scope Z_scope.

Definition Fixed (a : Z) (s : st) : Prop :=
  may_migrate s = false /\ remote (cur s) = a /\ timer s = None.

Lemma fixed_step a s o s' out : Fixed a s -> step s o = Some (s', out) -> Fixed a s'.
Proof.
  intros (Hm & Hr & Ht) Hs. unfold Fixed.
  split; [rewrite (step_may_migrate _ _ _ _ Hs); exact Hm|].
  destruct o as [d|now|seg max ds]; cbn [step] in Hs.
  - inversion Hs; subst s' out.
    destruct (handle_datagram_cases s d) as [->|[(Hm' & _)| ->]]; [split; assumption|congruence|].
    destruct (stays_cases s d) as (Er & [(_ & Et)|(_ & _ & _ & Et)]); split; congruence.
  - inversion Hs; subst s' out. destruct (handle_timeout_cases s now) as [->|(dl & Et & _)]; [split; assumption|congruence].
  - destruct (transmit_preserves _ _ _ _ _ _ Hs) as [(_ & _ & _ & _ & Et & Er & _) _]. split; congruence.
Qed.

Theorem non_migrating_never_moves : forall srv mig a l s,
  srv && mig = false -> steps (init srv mig a) l = Some s ->
  remote (cur s) = a /\ validated (cur s) = true.
Proof.
  intros srv mig a l s Hm Hs.
  assert (Fixed a s) as (_ & Hr & Ht).
  { apply (steps_invariant0 (Fixed a) (fixed_step a) l _ _) in Hs; [exact Hs|]. repeat split. exact Hm. }
  split; [exact Hr|].
  pose proof (steps_inv0 l _ _ (init_inv srv mig a) Hs) as (_ & _ & I3 & _).
  destruct (validated (cur s)) eqn:E; [reflexivity|]. destruct (I3 eq_refl) as (Hn & _). congruence.
Qed.

Lemma moved_cases s d :
  remote (cur (handle_datagram s d)) <> remote (cur s) ->
  may_migrate s = true /\ accepted s d = true /\ moves s d = true /\
  handle_datagram s d = credit (migrate (frames s d) d) (d_size d).
Proof.
  intro Hne. destruct (handle_datagram_cases s d) as [E|[H|E]]; [|exact H|]; contradiction Hne; rewrite E.
  - reflexivity.
  - apply stays_cases.
Qed.

Theorem migrate_requires_fresh_authentic s d :
  Inv s -> remote (cur (handle_datagram s d)) <> remote (cur s) ->
  may_migrate s = true /\ d_auth d = true /\ d_old d = false /\ memz (d_pn d) (seen s) = false /\
  all_probing (d_frames d) = false /\ (forall q, In q (seen s) -> q < d_pn d) /\
  d_from d <> remote (cur s) /\ remote (cur (handle_datagram s d)) = d_from d.
Proof.
  intros HI Hne. destruct (moved_cases s d Hne) as (Hm & Ea & Em & ->).
  apply accepted_true in Ea as (Ea & Eo & Emem). apply moves_true in Em as (Ef & Epr & Erx).
  repeat split; try assumption.
  intros q Hq. destruct HI as (_ & _ & _ & I4). specialize (I4 q Hq).
  assert (q <> d_pn d) by (intro; subst q; apply memz_In in Hq; congruence). lia.
Qed.

(** a packet whose number was accepted before does nothing (beyond the byte credit when it
    arrives from the current address): a replay can never migrate, validate or queue a response *)
Theorem replay_does_nothing s d :
  memz (d_pn d) (seen s) = true -> handle_packet s d = s.
Proof.
  intro H. unfold handle_packet. destruct (negb (d_auth d)); [reflexivity|]. rewrite H, orb_true_r. reflexivity.
Qed.

Theorem unauthenticated_does_nothing s d : d_auth d = false -> handle_packet s d = s.
Proof. intro H. unfold handle_packet. rewrite H. reflexivity. Qed.

Lemma accepted_is_seen s d :
  (d_from d = remote (cur s) \/ may_migrate s = true) -> d_auth d = true -> d_old d = false ->
  In (d_pn d) (seen (handle_datagram s d)).
Proof.
  intros Hg Ha Ho. unfold handle_datagram.
  replace (negb (d_from d =? remote (cur s)) && negb (may_migrate s)) with false
    by (destruct Hg as [-> | ->]; [rewrite Z.eqb_refl; reflexivity|rewrite andb_false_r; reflexivity]).
  assert (In (d_pn d) (seen (handle_packet s d))) as Hp.
  { destruct (handle_packet_keeps s d) as (_ & _ & ->). destruct (memz (d_pn d) (seen s)) eqn:Em.
    - apply memz_In in Em. destruct (accepted s d); [right|]; exact Em.
    - rewrite (proj2 (accepted_true s d)) by auto. left; reflexivity. }
  destruct (d_from d =? remote (cur (handle_packet s d))); exact Hp.
Qed.

Lemma steps_seen l s s' q : steps s l = Some s' -> In q (seen s) -> In q (seen s').
Proof.
  intros Hs H. apply (steps_invariant0 (fun s' => In q (seen s'))) in Hs; [exact Hs| |exact H].
  intros s0 o s1 out H0 Hs0. apply (step_keeps _ _ _ _ Hs0). exact H0.
Qed.

(** once a packet was processed, the same packet delivered again — from any address, at any
    later time, with whatever the environment claims about it — changes nothing *)
Theorem replayed_packet_never_migrates : forall s d l s2 d',
  (d_from d = remote (cur s) \/ may_migrate s = true) -> d_auth d = true -> d_old d = false ->
  steps (handle_datagram s d) l = Some s2 -> d_pn d' = d_pn d ->
  handle_packet s2 d' = s2 /\ remote (cur (handle_datagram s2 d')) = remote (cur s2).
Proof.
  intros s d l s2 d' Hg Ha Ho Hs Hpn.
  assert (memz (d_pn d') (seen s2) = true) as Hm.
  { apply memz_In. rewrite Hpn. eapply steps_seen; [exact Hs|]. apply accepted_is_seen; assumption. }
  split; [apply replay_does_nothing; exact Hm|].
  unfold handle_datagram. destruct (negb (d_from d' =? remote (cur s2)) && negb (may_migrate s2)); [reflexivity|].
  rewrite (replay_does_nothing _ _ Hm). destruct (d_from d' =? remote (cur s2)); reflexivity.
Qed.

Theorem migration_starts_limited s d :
  Inv s -> remote (cur (handle_datagram s d)) <> remote (cur s) ->
  let s' := handle_datagram s d in
  validated (cur s') = false /\ aa (cur s') = AA.recv (AA.fresh false) (d_size d) /\
  challenge (cur s') = Some (d_tok_new d) /\ pending (cur s') = true /\
  timer s' = Some (d_now d + 3 * Z.max (d_pto_new d) (d_pto_prev d)) /\
  last_valid s' = last_valid s /\
  exists p, prev s' = Some p /\ validated p = true /\ remote p = last_valid s.
Proof.
  intros HI Hne. pose proof (handle_datagram_inv s d HI) as HI'.
  destruct (moved_cases s d Hne) as (_ & _ & Em & Heq). cbv zeta. rewrite Heq in *.
  assert (last_valid (frames s d) = last_valid s) as El.
  { destruct (frames_cases s d) as [r [[-> _]|[_ (tok & _ & _ & Hf)]]]; [reflexivity|].
    apply moves_true in Em as [Ef _]. contradiction. }
  destruct (inv_unvalidated _ HI' eq_refl) as (_ & p & Hp & Hpv & Hpl).
  repeat split; try exact El. exists p. rewrite <- El. repeat split; assumption.
Qed.

(** C07's bound on every unvalidated current path: the bytes really sent to the address since
    the migration stay below 3 x the bytes really received from it (triggering datagram
    included) plus one datagram *)
Theorem new_path_amplification_bound : forall mtu srv mig a l s,
  0 < mtu -> Forall (op_wf mtu) l -> steps (init srv mig a) l = Some s ->
  validated (cur s) = false ->
  AA.gs (aa (cur s)) < AA.FACTOR * AA.gr (aa (cur s)) + mtu.
Proof.
  intros mtu srv mig a l s Hm Hwf Hs Hv.
  destruct (reachable_inv mtu srv mig a l s Hwf Hs) as [_ HH].
  destruct (HH Hv) as (h & Hh & Hsteps).
  exact (AntiAmpProofs.amplification_bound mtu h _ Hm Hh Hsteps Hv).
Qed.

Theorem validation_only_by s o s' out :
  Inv s -> step s o = Some (s', out) -> validated (cur s) = false -> validated (cur s') = true ->
  (exists d tok, o = Datagram d /\ d_auth d = true /\ d_old d = false /\ memz (d_pn d) (seen s) = false /\
                 d_from d = remote (cur s) /\ challenge (cur s) = Some tok /\ In (FResponse tok) (d_frames d) /\
                 remote (cur s') = remote (cur s))
  \/ (exists now dl, o = Timeout now /\ timer s = Some dl /\ dl <= now /\ remote (cur s') = last_valid s).
Proof.
  intros HI Hs Hv Hv'. destruct o as [d|now|seg max ds]; cbn [step] in Hs.
  - left. inversion Hs; subst s' out. clear Hs.
    destruct (handle_datagram_cases s d) as [E|[(_ & _ & _ & E)|E]]; rewrite E in *;
      [congruence|discriminate Hv'|].
    destruct (stays_cases s d) as (Er & [(Ev & _)|(Ea & (tok & Hin & Hc & Hf) & _)]); [congruence|].
    apply accepted_true in Ea as (Ea & Eo & Emem). exists d, tok. repeat split; assumption.
  - right. inversion Hs; subst s' out.
    destruct (handle_timeout_cases s now) as [E|(dl & Et & Hle & _)]; [congruence|].
    exists now, dl. repeat split; try assumption. apply (timeout_reverts s now dl HI Et Hle).
  - exfalso. destruct (transmit_preserves _ _ _ _ _ _ Hs) as [(_ & _ & _ & E & _) _]. congruence.
Qed.

Theorem unvalidated_path_is_on_the_clock : forall srv mig a l s,
  steps (init srv mig a) l = Some s ->
  if validated (cur s)
  then timer s = None /\ last_valid s = remote (cur s) /\ challenge (cur s) = None
  else (exists dl, timer s = Some dl) /\ (exists tok, challenge (cur s) = Some tok) /\
       exists p, prev s = Some p /\ validated p = true /\ remote p = last_valid s.
Proof.
  intros srv mig a l s Hs. pose proof (steps_inv0 l _ _ (init_inv srv mig a) Hs) as HI.
  pose proof HI as (I1 & I2 & I3 & _).
  destruct (validated (cur s)) eqn:E.
  - destruct (I2 eq_refl) as (Hl & Ht & _). repeat split; try assumption. apply I1. reflexivity.
  - destruct (I3 eq_refl) as (Ht & Hp). split; [destruct (timer s) as [dl|]; [exists dl; reflexivity|contradiction]|].
    split; [|exact Hp]. destruct (challenge (cur s)) as [t|] eqn:Ec; [exists t; reflexivity|].
    destruct I1 as [I1 _]. specialize (I1 eq_refl). congruence.
Qed.

Theorem fallback_at_deadline : forall srv mig a l s dl now,
  steps (init srv mig a) l = Some s -> timer s = Some dl -> dl <= now ->
  let s' := handle_timeout s now in
  validated (cur s) = false /\ remote (cur s') = last_valid s /\ validated (cur s') = true /\
  challenge (cur s') = None /\ prev s' = None /\ timer s' = None.
Proof.
  intros srv mig a l s dl now Hs Ht Hle.
  pose proof (steps_inv0 l _ _ (init_inv srv mig a) Hs) as HI.
  destruct (timeout_reverts s now dl HI Ht Hle) as (H1 & H2 & H3 & H4 & H5 & H6 & _).
  cbv zeta. repeat split; assumption.
Qed.

(** a deadline appears only by [migrate], as now + 3 x max(PTO after, PTO before): a pending
    deadline was computed by the most recent migration *)
Theorem timer_set_only_by_migrate s o s' out dl :
  step s o = Some (s', out) -> timer s' = Some dl -> timer s <> Some dl ->
  exists d, o = Datagram d /\ remote (cur s') = d_from d /\ d_from d <> remote (cur s) /\
            dl = d_now d + 3 * Z.max (d_pto_new d) (d_pto_prev d).
Proof.
  intros Hs Ht Hn. destruct o as [d|now|seg max ds]; cbn [step] in Hs.
  - inversion Hs; subst s' out. exists d. split; [reflexivity|].
    destruct (handle_datagram_cases s d) as [E|[(_ & _ & Em & E)|E]]; rewrite E in *.
    + congruence.
    + apply moves_true in Em as [Ef _]. cbn in Ht. inversion Ht. repeat split. exact Ef.
    + exfalso. destruct (stays_cases s d) as (_ & [(_ & Et)|(_ & _ & _ & Et)]); congruence.
  - inversion Hs; subst s' out. destruct (handle_timeout_cases s now) as [E|(d0 & _ & _ & E)]; rewrite E in Ht; [congruence|discriminate].
  - exfalso. destruct (transmit_preserves _ _ _ _ _ _ Hs) as [(_ & _ & _ & _ & E & _) _]. congruence.
Qed.

Theorem validated_path_not_limited s b :
  validated (cur s) = true -> AA.blocked (aa (cur s)) b = Some false.
Proof. intro H. unfold AA.blocked. unfold validated in H. rewrite H. reflexivity. Qed.

(** the matching response lifts the limit at once, whatever the counters say *)
Theorem validated_path_resumes s d tok b :
  Inv s -> validated (cur s) = false -> challenge (cur s) = Some tok ->
  d_from d = remote (cur s) -> d_auth d = true -> d_old d = false -> memz (d_pn d) (seen s) = false ->
  In (FResponse tok) (d_frames d) ->
  let s' := handle_datagram s d in
  validated (cur s') = true /\ remote (cur s') = remote (cur s) /\ timer s' = None /\
  AA.blocked (aa (cur s')) b = Some false.
Proof.
  intros HI Hv Hc Hf Ha Ho Hm Hin. cbv zeta. rewrite handle_datagram_eq.
  unfold moves, stays, credited. rewrite (proj2 (accepted_true s d)) by auto. rewrite Hf, Z.eqb_refl. cbn [negb andb].
  destruct (frames_cases s d) as [r [[_ N]|[-> _]]]; [exfalso; exact (N tok Hin Hc Hf)|].
  repeat split.
Qed.

(** where a [poll_transmit] may send: besides the current path, one datagram to the previous path
    or to the address of an off-path challenge, accounted in no counter *)
Theorem transmit_destinations s seg max ds s' out :
  Inv s -> transmit s seg max ds = Some (s', out) ->
  out = []
  \/ (exists t, out = [(remote (cur s), t)] /\
                AA.gs (aa (cur s')) = AA.gs (aa (cur s)) + t /\ AA.gr (aa (cur s')) = AA.gr (aa (cur s)))
  \/ (exists p, prev s = Some p /\ pending p = true /\ validated p = true /\ remote p = last_valid s /\
                validated (cur s) = false /\ out = [(remote p, MIN_INITIAL_SIZE)] /\
                prev s' = Some (set_pending p false) /\ cur s' = cur s)
  \/ (exists tok a r', PR.pop_off_path (resps s) (remote (cur s)) = (r', Some (tok, a)) /\
                a <> remote (cur s) /\ out = [(a, MIN_INITIAL_SIZE)] /\ resps s' = r' /\ cur s' = cur s).
Proof.
  intros HI Hs.
  destruct (transmit_cases _ _ _ _ _ _ Hs) as [[[_ ->]|[(tok & a & r' & Epop & -> & ->)|(a' & n & t & Ep & -> & ->)]]|(p & Ep & Epd & -> & ->)].
  - left. reflexivity.
  - right. right. right. exists tok, a, r'. repeat split; [exact Epop|].
    unfold PR.pop_off_path in Epop. destruct (PR.unsnoc (resps s)) as [[l' x]|]; [|discriminate].
    destruct (PR.remote x =? remote (cur s)) eqn:E; [discriminate|]. inversion Epop; subst. lia.
  - right. left. exists t. split; [reflexivity|].
    destruct (AntiAmpProofs.poll_some _ _ _ _ _ _ _ Ep) as [_ ->]. split; reflexivity.
  - right. right. left. exists p.
    assert (validated (cur s) = false) as Hv.
    { destruct (validated (cur s)) eqn:E; [|reflexivity]. destruct HI as (_ & I2 & _).
      destruct (I2 E) as (_ & _ & Hpp). rewrite (Hpp p Ep) in Epd. discriminate. }
    destruct (inv_unvalidated s HI Hv) as (_ & p' & Hp' & Hpv & Hpr). rewrite Ep in Hp'. inversion Hp'; subst p'.
    repeat split; assumption.
Qed.

(** an authentic 50-byte datagram from a third address carrying only a PATH_CHALLENGE: the
    PATH_RESPONSE it draws is not limited by what that address sent
    ([C15_offpath_response_not_limited]) *)
Definition offpath_witness : dgram := mkd 0 9 50 true false 5 [FChallenge 77] 0 0 0 0.

(** * the coalesced-datagram credit (defect found by the trace ledger, repaired in the code) *)
Lemma coalesced_fixed_inv s from n : Inv s -> Inv (coalesced_fixed s from n).
Proof. intro H. unfold coalesced_fixed. destruct (from =? remote (cur s)); [apply credit_inv|]; exact H. Qed.

Lemma coalesced_fixed_hist mtu s from n : 0 <= n -> Hist mtu s -> Hist mtu (coalesced_fixed s from n).
Proof. intros Hn H. unfold coalesced_fixed. destruct (from =? remote (cur s)); [apply credit_hist; assumption|exact H]. Qed.

(** the unrepaired credit refutes the bound: address 66 sent 1200 bytes; two datagrams from
    elsewhere with 1149 coalesced bytes each raise its budget; 6000 bytes go to 66, which is not
    below 3 x 1200 + 1200 *)
Definition coalesced_witness : dgram := mkd 1000 66 1200 true false 7 [FOther] 333 444 400 300.
Theorem coalesced_credit_refuted :
  let s1 := handle_datagram (init true true 0) coalesced_witness in
  let s2 := coalesced_unfixed (coalesced_unfixed s1 1149) 1149 in
  match steps s2 [Transmit 1200 1 [1200]; Transmit 1200 10 [1200; 1200; 1200; 1200; 1200]] with
  | Some s3 => remote (cur s3) = 66 /\ validated (cur s3) = false /\
               AA.gr (aa (cur s3)) = 1200 /\ AA.gs (aa (cur s3)) = 6000 /\
               3 * AA.gr (aa (cur s3)) + 1200 <= AA.gs (aa (cur s3))
  | None => False
  end.
Proof. vm_compute. repeat split; try reflexivity; intro H; discriminate H. Qed.
