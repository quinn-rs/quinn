(** C18 — facts about single steps and concrete witnesses (no run-invariant needed). *)
From QV Require Import Lib.Tac Model.AsyncConn Proofs.AsyncConnInv Proofs.AsyncConnLemmas Proofs.RunInduction.
From Coq Require Import Arith.

(** ** Cancellation: dropping a pending future touches nothing but the task's own registration *)
Theorem drop_changes_no_protocol_state : forall s t, proto_eq (step' s (AppDrop t)) s.
Proof.
  intros s t. unfold step', step; cbn [fst]. unfold release.
  destruct (pend s t) as [o|]; [|unfold proto_eq; repeat split; reflexivity].
  destruct o; cbn [notify_of]; unfold proto_eq; cbn_st; repeat split; reflexivity.
Qed.

(** ** After a close no poll pends, and polls report the error (buffered items first) *)
Lemma release_closed : forall s t, closed (release s t) = closed s.
Proof.
  intros s t. unfold closed. change (release s t) with (step' s (AppDrop t)).
  rewrite (proto_eq_err _ _ (drop_changes_no_protocol_state s t)). reflexivity.
Qed.

Lemma cond_closed : forall s o, closed s = true -> cond s o = true.
Proof. intros s o Hc; destruct o; cbn [cond]; rewrite Hc, ?orb_true_r; reflexivity. Qed.
Lemma try_op_closed_some : forall s o n, closed s = true -> try_op s o n <> None.
Proof. intros s o n Hc H. apply try_op_none in H. rewrite (cond_closed s o Hc) in H. discriminate. Qed.

Definition pre_poll (s : st) (t : nat) : st := set_runnable (release s t) (upd (runnable (release s t)) t false).
Lemma app_poll_cases : forall s t o n,
  app_poll s t o n = (s, NotOk) \/
  (exists s' r, try_op (pre_poll s t) o n = Some (s', r) /\ app_poll s t o n = (s', Ready r)) \/
  (try_op (pre_poll s t) o n = None /\ app_poll s t o n = (register (pre_poll s t) t o, Pending)).
Proof.
  intros s t o n. unfold app_poll. destruct (poll_ok s t o n); cbn [negb]; [|left; reflexivity].
  fold (pre_poll s t). destruct (try_op (pre_poll s t) o n) as [[s' r]|]; eauto 6.
Qed.
Theorem closed_poll_never_pends : forall s t o n, closed s = true -> snd (app_poll s t o n) <> Pending.
Proof.
  intros s t o n Hc. destruct (app_poll_cases s t o n) as [->|[(s' & r & _ & ->)|[E _]]]; try discriminate.
  destruct (try_op_closed_some (pre_poll s t) o n (eq_trans (release_closed s t) Hc) E).
Qed.

(** the operations that check [error] FIRST fail; [closed()] succeeds; the others deliver what
    is buffered and fail otherwise *)
Theorem closed_poll_errors : forall s t o n r,
  closed s = true -> snd (app_poll s t o n) = Ready r ->
  match o with
  | OWrite _ | OOpen _ | OSendDgram | OAuth | OHsConf => r = RErr
  | OClosed => r = ROk
  | OConnect => r = ROk \/ r = RErr
  | OAccept _ => (exists k, r = RStream k) \/ r = RErr
  | ORead _ => (exists l, r = RData l) \/ r = REnd \/ r = RErr
  | OStopped _ => r = ROk \/ r = RErr
  | ORecvDgram => (exists d, r = RDgram d) \/ r = RErr
  end.
Proof.
  intros s t o n r Hc. pose proof (eq_trans (release_closed s t) Hc : closed (pre_poll s t) = true) as H1.
  destruct (app_poll_cases s t o n) as [->|[(s' & r' & E & ->)|[_ ->]]]; try discriminate.
  cbn [snd]. intros Hr. injection Hr as ->.
  destruct o; cbn [try_op] in E; rewrite ?H1 in E;
    repeat match type of E with context [match ?x with _ => _ end] => destruct x end;
    inversion E; subst; eauto.
Qed.

Lemma closed_set_tasks : forall s p r rb wb, closed (set_tasks s p r rb wb) = closed s.
Proof. reflexivity. Qed.

Lemma drv_event_closed : forall s e, closed s = true -> closed (drv_event s e) = true.
Proof.
  intros s e Hc. unfold closed in *. rewrite (proj2 (drv_event_frame s e)). destruct e; auto.
Qed.

Lemma drv_events_closed : forall evs s, closed s = true -> closed (fold_left drv_event evs s) = true.
Proof. intros evs. apply (fold_left_pres drv_event (fun a => closed a = true)), drv_event_closed. Qed.

Lemma closed_need_driver : forall s, closed (need_driver s) = closed s.
Proof. intros s. rewrite need_driver_nf. reflexivity. Qed.
Lemma closed_terminate : forall s c, closed (terminate s c) = true.
Proof. reflexivity. Qed.
Lemma closed_close_conn : forall s, closed (close_conn s) = true.
Proof. intros. unfold close_conn. rewrite closed_need_driver. apply closed_terminate. Qed.
Lemma closed_drop_ref : forall s h, closed s = true -> closed (drop_ref s h) = true.
Proof. intros s h Hc. apply drop_ref_cases; auto using closed_close_conn. Qed.

(** a property of the error and control fields alone is preserved by every step once
    [need_driver], [close_conn], [drop_ref] and the driver poll preserve it *)
Definition cx (s : st) := (err s, ctl s).
Lemma cx_ctl : forall a b, cx a = cx b -> ctl a = ctl b.
Proof. intros a b E. exact (f_equal snd E). Qed.
Lemma closed_cx : forall a b, cx a = cx b -> closed a = closed b.
Proof. intros a b E. unfold closed. injection E as -> _. reflexivity. Qed.

Lemma try_op_cx : forall s o n s' r, try_op s o n = Some (s', r) ->
  cx s' = cx s \/ cx s' = cx (need_driver s).
Proof.
  intros s o n s' r Htry.
  destruct o; cbn [try_op] in Htry; unfold closed in Htry;
    repeat match type of Htry with
           | context [match ?x with _ => _ end] =>
               lazymatch x with
               | Some _ => fail
               | _ => destruct x; cbv iota in Htry; try discriminate Htry
               end
           end;
    injection Htry as <- <-; rewrite ?need_driver_nf; auto.
Qed.
Lemma cx_release : forall s t, cx (release s t) = cx s.
Proof.
  intros s t. pose proof (drop_changes_no_protocol_state s t : proto_eq (release s t) s) as H.
  unfold cx. rewrite (proto_eq_err _ _ H), (proto_eq_ctl _ _ H). reflexivity.
Qed.
Lemma cx_register : forall s t o, cx (register s t o) = cx s.
Proof.
  intros s t o; unfold register. destruct o; cbn [notify_of]; try reflexivity.
  destruct (memb _ _); reflexivity.
Qed.
Lemma cx_need_driver : forall a b, cx a = cx b -> cx (need_driver a) = cx (need_driver b).
Proof. intros a b H. rewrite !need_driver_nf. unfold cx, ctl in *. cbn_st. congruence. Qed.

Lemma app_poll_cx : forall s t o n,
  cx (fst (app_poll s t o n)) = cx s \/ cx (fst (app_poll s t o n)) = cx (need_driver s).
Proof.
  intros s t o n. pose proof (cx_release s t : cx (pre_poll s t) = cx s) as Hpre.
  destruct (app_poll_cases s t o n) as [->|[(s' & r & E & ->)|[_ ->]]]; cbn [fst].
  - left; reflexivity.
  - destruct (try_op_cx _ _ _ _ _ E) as [->| ->]; [left; exact Hpre|right; apply cx_need_driver, Hpre].
  - left. rewrite cx_register. exact Hpre.
Qed.

Lemma step_cx_rule : forall (P : st -> Prop) s,
  (forall a b, cx a = cx b -> P b -> P a) ->
  (forall a, P a -> P (need_driver a)) -> (forall a, P a -> P (close_conn a)) ->
  (forall a h, P a -> P (drop_ref a h)) -> (forall evs, P s -> P (drv_poll s evs)) ->
  P s -> forall l, P (step' s l).
Proof.
  intros P s Hcx Hneed Hclose Hdrop Hdrv H l.
  assert (Hs : forall a, cx a = cx s -> P a) by (intros a E; exact (Hcx a s E H)).
  unfold step', step. destruct l as [t o n|t|evs| |k|k|k| | |k|k]; cbn [fst]; auto.
  - destruct (app_poll_cx s t o n) as [E|E]; [exact (Hs _ E)|exact (Hcx _ _ E (Hneed s H))].
  - apply Hs, cx_release.
  - destruct (Z.ltb 0 (nhandles s)); auto.
  - apply (guarded_call P); auto.
  - apply (guarded_call P); auto.
  - apply (guarded_call P); auto.
  - destruct (Z.ltb 0 (nhandles s)); auto.
  - destruct (Z.ltb 0 (nhandles s)); auto.
  - apply (guarded_call P); [exact H|intros _ _].
    apply Hdrop. destruct (all_read _ k); [auto|]. destruct (closed _); auto.
  - apply (guarded_call P); [exact H|intros _ _].
    apply Hdrop. destruct (closed _); auto.
Qed.

(** the error is never cleared *)
Theorem closed_is_stable : forall s l, closed s = true -> closed (step' s l) = true.
Proof.
  intros s l Hc. apply (step_cx_rule (fun a => closed a = true)); auto using closed_close_conn, closed_drop_ref.
  - intros a b E H. rewrite (closed_cx a b E). exact H.
  - intros a H. rewrite closed_need_driver. exact H.
  - intros evs _. unfold drv_poll. destruct (driver_alive s); cbn [negb]; [|exact Hc].
    set (s2 := fold_left _ _ _).
    assert (H2 : closed s2 = true) by (apply drv_events_closed; exact Hc).
    destruct (drained s2); [apply closed_drop_ref|]; exact H2.
Qed.

Lemma drop_ref_frame : forall s h,
  rx_end (drop_ref s h) = rx_end s /\ rx (drop_ref s h) = rx s /\ w_end (drop_ref s h) = w_end s /\
  (forall k, aget (br s) k = None -> aget (br (drop_ref s h)) k = None) /\
  (forall k, aget (bw s) k = None -> aget (bw (drop_ref s h)) k = None).
Proof. intros s h. apply drop_ref_cases; [auto 6|]. intros _ _. rewrite close_conn_nf. auto 6. Qed.

(** the stale waker a dropped read / write future leaves behind is cleared with the handle *)
Theorem stale_waker_cleared_by_handle_drop : forall s k,
  rborrow s k = None -> recv_h s k = true -> all_read s k = false ->
  aget (br (step' s (HDropRecv k))) k = None.
Proof.
  intros s k Hb Hh Ha. unfold step', step. rewrite Hh, Hb. cbn [fst]. cbn_st. rewrite Ha.
  apply (drop_ref_frame _ true). destruct (closed _); [|rewrite need_driver_nf]; apply aget_arem_same.
Qed.

Theorem stale_writer_waker_cleared_by_handle_drop : forall s k,
  wborrow s k = None -> send_h s k = true ->
  aget (bw (step' s (HDropSend k))) k = None.
Proof.
  intros s k Hb Hh. unfold step', step. rewrite Hh, Hb. cbn [fst].
  apply (drop_ref_frame _ true). destruct (closed _); [|rewrite need_driver_nf]; apply aget_arem_same.
Qed.

Theorem recv_drop_stops : forall s k,
  recv_h s k = true -> rborrow s k = None -> all_read s k = false -> closed s = false ->
  rx_end (step' s (HDropRecv k)) k = true /\ rx (step' s (HDropRecv k)) k = [] \/ closed (step' s (HDropRecv k)) = true.
Proof.
  intros s k Hh Hb Ha Hc. left. unfold step', step. rewrite Hh, Hb. cbn [fst]. cbn_st. rewrite Ha.
  change (closed (set_br _ _)) with (closed s). rewrite Hc.
  match goal with |- rx_end (drop_ref ?x true) k = true /\ _ => destruct (drop_ref_frame x true) as (-> & -> & _) end.
  rewrite need_driver_nf. cbn_st. rewrite !upd_same. auto.
Qed.

Theorem send_drop_finishes : forall s k,
  send_h s k = true -> wborrow s k = None -> closed s = false ->
  w_end (step' s (HDropSend k)) k = true.
Proof.
  intros s k Hh Hb Hc. unfold step', step. rewrite Hh, Hb. cbn [fst].
  change (closed (set_bw _ _)) with (closed s). rewrite Hc.
  match goal with |- w_end (drop_ref ?x true) k = true => destruct (drop_ref_frame x true) as (_ & _ & -> & _) end.
  rewrite need_driver_nf. cbn_st. apply upd_same.
Qed.

Theorem driver_exits_when_drained : forall s evs,
  driver_alive s = true ->
  drained (fold_left drv_event evs (set_drv s true false false (drv_work s))) = true ->
  driver_alive (drv_poll s evs) = false.
Proof.
  intros s evs Ha Hd. unfold drv_poll. rewrite Ha. cbn [negb]. rewrite Hd.
  apply drop_ref_cases; [reflexivity|]. intros _ _. rewrite close_conn_nf. reflexivity.
Qed.

Theorem drained_releases_endpoint_entry : forall s,
  closed s = true -> ep_entry (drv_event s PDrained) = false /\ drained (drv_event s PDrained) = true.
Proof. intros s Hc. cbn [drv_event]. rewrite Hc. cbn_st. auto. Qed.

Local Open Scope Z_scope.

(** KNOWN CLASS stopped-after-reset: a [stopped()] future pending while the local [reset()] is
    acknowledged: its condition holds, nobody wakes it *)
Definition reset_ack_trace : list label :=
  [DrvPoll [PConnected; PAvailable false 1%nat]; AppPoll 0 (OOpen false) 5; AppReset 5;
   AppPoll 1 (OStopped 5) 0; DrvPoll [PResetAcked 5]].
Theorem no_lost_wakeup_refuted : exists ls t o,
  pend (run ls) t = Some o /\ cond (run ls) o = true /\ runnable (run ls) t = false.
Proof. exists reset_ack_trace, 1%nat, (OStopped 5). vm_compute. auto. Qed.

(** the same trace with a fresh [stopped()] instead: it completes at once *)
Example fresh_stopped_after_reset_ack_completes :
  snd (step (run reset_ack_trace) (AppPoll 2 (OStopped 5) 0)) = Ready ROk.
Proof. vm_compute. reflexivity. Qed.

(** the [Read] future has no [Drop]: a cancelled read leaves its waker in [blocked_readers] *)
Definition stale_trace : list label :=
  [DrvPoll [PConnected; POpened false 3 [] false]; AppPoll 0 (OAccept false) 0;
   AppPoll 1 (ORead 3) 10; AppDrop 1].
Theorem drop_leaves_stale_stream_waker_witness : exists ls t k,
  pend (run ls) t = None /\ aget (br (run ls)) k = Some t.
Proof. exists stale_trace, 1%nat, 3%nat. vm_compute. auto. Qed.

(** ... which causes at most a spurious wake-up and loses nothing: another task reads everything *)
Example stale_waker_is_only_spurious :
  let s := run (stale_trace ++ [DrvPoll [PData 3 [7; 8; 9] true]]) in
  runnable s 1 = true /\ pend s 1 = None /\ aget (br s) 3 = None /\
  snd (step s (AppPoll 2 (ORead 3) 10)) = Ready (RData [7; 8; 9]) /\
  let s' := step' s (AppPoll 2 (ORead 3) 10) in
  delivered s' 3 = arrived s' 3 /\ snd (step s' (AppPoll 2 (ORead 3) 10)) = Ready REnd.
Proof. vm_compute. repeat split; reflexivity. Qed.

(** [ref_count] is off by one once the driver has exited: 0 with a live handle *)
Theorem refcount_zero_with_live_handle_witness : exists ls,
  refcnt (run ls) = 0 /\ nhandles (run ls) = 1 /\ driver_alive (run ls) = false.
Proof.
  exists [HClone; DrvPoll [PLost 3; PDrained]; HDropConn]. vm_compute. auto.
Qed.

(** why [&mut self] on the stream handles is load-bearing: one waker slot per stream *)
Example two_readers_one_waker_slot :
  let s0 := run [DrvPoll [POpened false 3 [] false]; AppPoll 0 (OAccept false) 0] in
  let s2 := drv_event (register (register s0 1 (ORead 3)) 2 (ORead 3)) (PData 3 [7] false) in
  pend s2 1 = Some (ORead 3) /\ cond s2 (ORead 3) = true /\ runnable s2 1 = false.
Proof. vm_compute. auto. Qed.

(** non-vacuity: a reader blocks, data arrives, it is runnable and reads exactly the data *)
Example reader_blocks_then_reads :
  let s := run [DrvPoll [PConnected; POpened true 4 [] false]; AppPoll 0 (OAccept true) 0;
                AppPoll 1 (ORead 4) 100] in
  pend s 1 = Some (ORead 4) /\ runnable s 1 = false /\ cond s (ORead 4) = false /\
  aget (br s) 4 = Some 1%nat /\
  let s' := step' s (DrvPoll [PData 4 [1; 2; 3] false]) in
  runnable s' 1 = true /\ cond s' (ORead 4) = true /\
  snd (step s' (AppPoll 1 (ORead 4) 100)) = Ready (RData [1; 2; 3]).
Proof. vm_compute. repeat split; reflexivity. Qed.

(** non-vacuity: close wakes tasks blocked on three different primitives; later polls fail *)
Example close_wakes_three :
  let s := run [DrvPoll [PConnected; POpened true 4 [] false]; AppPoll 0 (OAccept true) 0;
                AppPoll 1 (ORead 4) 100; AppPoll 2 (OWrite 4) 10; AppPoll 3 ORecvDgram 0;
                AppPoll 4 (OStopped 4) 0; AppPoll 5 OClosed 0] in
  (runnable s 1 || runnable s 2 || runnable s 3 || runnable s 4 || runnable s 5) = false /\
  let s' := step' s AppClose in
  (runnable s' 1 && runnable s' 2 && runnable s' 3 && runnable s' 4 && runnable s' 5) = true /\
  snd (step s' (AppPoll 1 (ORead 4) 100)) = Ready RErr /\
  snd (step s' (AppPoll 2 (OWrite 4) 10)) = Ready RErr /\
  snd (step s' (AppPoll 5 OClosed 0)) = Ready ROk.
Proof. vm_compute. repeat split; reflexivity. Qed.

(** non-vacuity: teardown — last handle dropped, implicit close, drained, driver exits *)
Example teardown_trace :
  let s := run [DrvPoll [PConnected]; HClone; HDropConn; HDropConn] in
  closed s = true /\ inner_closed s = true /\ drv_runnable s = true /\
  let s' := step' s (DrvPoll [PDrained]) in
  driver_alive s' = false /\ ep_entry s' = false /\ refcnt s' = (-1) /\ nhandles s' = 0.
Proof. vm_compute. repeat split; reflexivity. Qed.
