(** The length-level assembler of Model/FlowRecv.v keeps everything buffered or delivered below
    the high-water mark [e]. *)
From QV Require Import Lib.Tac Lib.Corr Model.FlowRecv.
Open Scope Z_scope.

Fixpoint rs_wf (lo : Z) (rs : list (Z * Z)) : Prop :=
  match rs with
  | [] => True
  | (a, b) :: r => lo <= a /\ a < b /\ rs_wf (b + 1) r
  end.
Fixpoint rs_bound (hi : Z) (rs : list (Z * Z)) : Prop :=
  match rs with
  | [] => True
  | (a, b) :: r => b <= hi /\ rs_bound hi r
  end.

Lemma rs_wf_weaken lo lo' rs : rs_wf lo' rs -> lo <= lo' -> rs_wf lo rs.
Proof. destruct rs as [|[a b] r]; cbn; [auto|]. intros (H1 & H2 & H3) H. repeat split; auto; lia. Qed.
Lemma rs_bound_mono hi hi' rs : rs_bound hi rs -> hi <= hi' -> rs_bound hi' rs.
Proof. induction rs as [|[a b] r IH]; cbn; [auto|]. intros [H1 H2] H. split; [lia|auto]. Qed.

Lemma overlap_zero_bound rs : forall hi s e, rs_bound hi rs -> hi <= s -> rs_overlap s e rs = 0.
Proof.
  induction rs as [|[a b] r IH]; intros hi s e; cbn [rs_bound rs_overlap]; [auto|].
  intros (H1 & H2) H. rewrite (IH hi s e H2 H). lia.
Qed.
Lemma overlap_nonneg s e rs : 0 <= rs_overlap s e rs.
Proof. induction rs as [|[a b] r IH]; cbn [rs_overlap]; lia. Qed.

Lemma overlap_le rs : forall lo s e, rs_wf lo rs -> rs_overlap s e rs <= Z.max 0 (e - Z.max s lo).
Proof.
  induction rs as [|[a b] r IH]; intros lo s e; cbn [rs_wf rs_overlap]; [lia|].
  intros (H1 & H2 & H3). specialize (IH (b + 1) s e H3). lia.
Qed.

Lemma overlap_ext rs : forall lo s e a b, rs_wf lo rs -> b < lo -> s <= b ->
  rs_overlap (Z.min s a) (Z.max e b) rs = rs_overlap s e rs.
Proof.
  induction rs as [|[x y] r IH]; intros lo s e a b; cbn [rs_wf rs_overlap]; [auto|].
  intros (H1 & H2 & H3) Hb Hs.
  rewrite (IH (y + 1) s e a b H3 ltac:(lia) Hs). f_equal.
  (* said first, this leaves [lia] 16 min/max cases, not 64 *)
  rewrite (Z.max_r (Z.min s a) x), (Z.max_r s x) by lia. lia.
Qed.

Lemma insert_size rs : forall lo s e, rs_wf lo rs -> s < e ->
  rs_size (rs_insert s e rs) = rs_size rs + (e - s) - rs_overlap s e rs.
Proof.
  induction rs as [|[a b] r IH]; intros lo s e; cbn [rs_wf rs_insert rs_size rs_overlap].
  - intros _ H. lia.
  - intros (H1 & H2 & H3) H.
    destruct (e <? a) eqn:E1.
    + cbn [rs_size]. pose proof (overlap_le r (b + 1) s e H3). pose proof (overlap_nonneg s e r). lia.
    + destruct (b <? s) eqn:E2.
      * cbn [rs_size]. rewrite (IH (b + 1) s e H3 H). lia.
      * rewrite (IH (b + 1) (Z.min s a) (Z.max e b) H3 ltac:(lia)).
        rewrite (overlap_ext r (b + 1) s e a b H3 ltac:(lia) ltac:(lia)). lia.
Qed.

Lemma insert_wf rs : forall lo s e, rs_wf lo rs -> lo <= s -> s < e -> rs_wf lo (rs_insert s e rs).
Proof.
  induction rs as [|[a b] r IH]; intros lo s e; cbn [rs_wf rs_insert].
  - intros _ H1 H2. cbn. lia.
  - intros (H1 & H2 & H3) Hs He.
    destruct (e <? a) eqn:E1.
    + cbn [rs_wf]. repeat split; try lia. exact H3.
    + destruct (b <? s) eqn:E2.
      * cbn [rs_wf]. repeat split; try lia. apply IH; auto; lia.
      * apply IH; [apply (rs_wf_weaken lo (b + 1)); [exact H3|lia] | lia | lia].
Qed.

Lemma insert_bound rs : forall hi s e, rs_bound hi rs -> e <= hi -> rs_bound hi (rs_insert s e rs).
Proof.
  induction rs as [|[a b] r IH]; intros hi s e; cbn [rs_bound rs_insert].
  - intros _ H. cbn. auto.
  - intros (H1 & H2) H.
    destruct (e <? a); [cbn [rs_bound]; auto|].
    destruct (b <? s); [cbn [rs_bound]; split; auto|]. apply IH; auto. lia.
Qed.

Lemma size_le rs : forall lo hi, rs_wf lo rs -> rs_bound hi rs -> rs_size rs <= Z.max 0 (hi - lo).
Proof.
  induction rs as [|[a b] r IH]; intros lo hi; cbn [rs_wf rs_bound rs_size]; [lia|].
  intros (H1 & H2 & H3) (H4 & H5). specialize (IH (b + 1) hi H3 H5). lia.
Qed.

Lemma add_facts rs lo s e hi : rs_wf lo rs -> rs_bound hi rs -> lo <= s -> e <= hi ->
  rs_wf lo (rs_add s e rs) /\ rs_bound hi (rs_add s e rs) /\
  rs_size (rs_add s e rs) = rs_size rs + Z.max 0 (e - s) - rs_overlap s e rs /\
  rs_overlap s e rs <= Z.max 0 (e - s).
Proof.
  intros W B Hs He. unfold rs_add.
  pose proof (overlap_le rs lo s e W) as OL.
  destruct (s <? e) eqn:E.
  - repeat split.
    + apply insert_wf; auto; lia.
    + apply insert_bound; auto.
    + rewrite (insert_size rs lo s e W ltac:(lia)). lia.
    + lia.
  - repeat split; auto; try lia.
    assert (rs_overlap s e rs = 0) by (pose proof (overlap_nonneg s e rs); lia). lia.
Qed.

Definition chunks_ok (e : Z) (cs : list (Z * Z)) : Prop :=
  Forall (fun p => 0 < snd p /\ fst p + snd p <= e) cs.

Definition asm_ok (a : asm) (e : Z) : Prop :=
  0 <= a_read a /\
  match a_mode a with
  | AOrd cs => a_read a <= e /\ chunks_ok e cs
  | AUnord rv ub => rs_wf 0 rv /\ rs_bound e rv /\ a_read a + ub <= rs_size rv /\ 0 <= ub
  end.

Lemma asm_ok_read a e : 0 <= e -> asm_ok a e -> 0 <= a_read a <= e.
Proof.
  intros He [H0 H]. destruct (a_mode a) as [cs|rv ub].
  - lia.
  - destruct H as (W & B & S & U). pose proof (size_le rv 0 e W B). lia.
Qed.

Lemma chunks_ok_mono e e' cs : chunks_ok e cs -> e <= e' -> chunks_ok e' cs.
Proof.
  unfold chunks_ok. intros H L. eapply Forall_impl; [|exact H]. cbn. intros p [A B]. lia.
Qed.
Lemma ch_insert_ok e o l cs : chunks_ok e cs -> 0 < l -> o + l <= e -> chunks_ok e (ch_insert o l cs).
Proof.
  unfold chunks_ok. induction cs as [|[o' l'] r IH]; cbn [ch_insert]; intros H Hl Hb.
  - constructor; [cbn; lia|constructor].
  - inversion H; subst. destruct ((o <? o') || ((o =? o') && (l' <=? l))).
    + constructor; [cbn; lia|exact H].
    + constructor; [assumption|apply IH; assumption].
Qed.

Lemma asm_ok_mono a e e' : asm_ok a e -> e <= e' -> asm_ok a e'.
Proof.
  intros [H0 H] L. split; [exact H0|]. destruct (a_mode a) as [cs|rv ub].
  - destruct H. split; [lia|eapply chunks_ok_mono; eassumption].
  - destruct H as (W & B & S & U). repeat split; auto. eapply rs_bound_mono; eassumption.
Qed.

Lemma asm_new_ok e : 0 <= e -> asm_ok asm_new e.
Proof. intro H. unfold asm_ok, asm_new; cbn. repeat split; try lia. constructor. Qed.

Lemma asm_insert_ok a e off len :
  asm_ok a e -> 0 <= off -> off + len <= e -> asm_ok (asm_insert a off len) e.
Proof.
  intros [H0 H] Ho Hb. unfold asm_insert. destruct (len <=? 0) eqn:El; [split; assumption|].
  destruct (a_mode a) as [cs|rv ub] eqn:M.
  - destruct H as [Hr Hc].
    destruct (off <? a_read a) eqn:E1.
    + destruct (off + len <=? a_read a) eqn:E2; [unfold asm_ok; rewrite M; auto|].
      unfold asm_ok; cbn [a_read a_mode]. repeat split; auto. apply ch_insert_ok; auto; lia.
    + unfold asm_ok; cbn [a_read a_mode]. repeat split; auto. apply ch_insert_ok; auto; lia.
  - destruct H as (W & B & S & U).
    destruct (add_facts rv 0 off (off + len) e W B Ho Hb) as (W' & B' & S' & O').
    unfold asm_ok; cbn [a_read a_mode]. repeat split; auto; lia.
Qed.

Lemma asm_clear_ok a e : 0 <= e -> asm_ok a e -> asm_ok (asm_clear a) e.
Proof.
  intros He Hk. pose proof (asm_ok_read a e He Hk) as Hr. destruct Hk as [H0 H].
  unfold asm_clear. destruct (a_mode a) as [cs|rv ub] eqn:M;
    unfold asm_ok; cbn [a_read a_mode].
  - repeat split; try lia. constructor.
  - destruct H as (W & B & S & U). repeat split; auto; lia.
Qed.

Lemma read_ord_ok e cs : forall br rem total cs' br' rem' total' none,
  chunks_ok e cs -> 0 <= br <= e ->
  read_ord cs br rem total = (cs', br', rem', total', none) ->
  chunks_ok e cs' /\ br <= br' <= e /\ total' - total = br' - br.
Proof.
  induction cs as [|[o l] r IH]; intros br rem total cs' br' rem' total' none Hc Hb H;
    cbn [read_ord] in H.
  - inversion H; subst. repeat split; auto; lia.
  - inversion Hc as [|p q [Hl Ho] Hr]; subst. cbn [fst snd] in *.
    destruct (rem <=? 0) eqn:E0; [inversion H; subst; repeat split; auto; lia|].
    destruct (br <? o) eqn:E1; [inversion H; subst; repeat split; auto; lia|].
    destruct (o + l <=? br) eqn:E2.
    + apply (IH br rem total cs' br' rem' total' none Hr Hb H).
    + destruct (rem <? o + l - br) eqn:E3.
      * inversion H; subst. repeat split; try lia. apply ch_insert_ok; auto; lia.
      * destruct (IH (br + (o + l - br)) (rem - (o + l - br)) (total + (o + l - br))
                     cs' br' rem' total' none Hr ltac:(lia) H) as (A & B & C).
        repeat split; auto; lia.
Qed.

Lemma asm_read_ok a e budget a' total none :
  0 <= e -> asm_ok a e -> asm_read a budget = (a', total, none) ->
  asm_ok a' e /\ 0 <= total /\ a_read a' = a_read a + total.
Proof.
  intros He [H0 H] R. unfold asm_read in R. destruct (a_mode a) as [cs|rv ub] eqn:M.
  - destruct H as [Hr Hc].
    destruct (read_ord cs (a_read a) budget 0) as [[[[cs' br] rem'] tot] nn] eqn:RO.
    destruct (read_ord_ok e cs (a_read a) budget 0 cs' br rem' tot nn Hc (conj H0 Hr) RO)
      as (A & B & C).
    inversion R; subst; clear R.
    unfold asm_ok; cbn [a_read a_mode]. repeat split; auto; lia.
  - destruct H as (W & B & S & U).
    destruct (budget <=? 0) eqn:Eb.
    + inversion R; subst. unfold asm_ok. rewrite M. repeat split; auto; lia.
    + inversion R; subst; clear R. unfold asm_ok; cbn [a_read a_mode]. repeat split; auto; lia.
Qed.

Lemma dedup_ok e cs : forall offset rv ub rv' ub',
  chunks_ok e cs -> rs_wf 0 rv -> rs_bound offset rv -> 0 <= offset <= e ->
  dedup_chunks cs offset rv ub = (rv', ub') ->
  rs_wf 0 rv' /\ rs_bound e rv' /\ rs_size rv' - rs_size rv = ub' - ub /\ ub <= ub'.
Proof.
  induction cs as [|[o l] r IH]; intros offset rv ub rv' ub' Hc W B Ho H; cbn [dedup_chunks] in H.
  - inversion H; subst. repeat split; auto; try lia. eapply rs_bound_mono; [exact B|lia].
  - inversion Hc as [|p q [Hl Hb] Hr]; subst. cbn [fst snd] in *.
    destruct (l <=? Z.max 0 (offset - o)) eqn:E; [apply (IH offset rv ub rv' ub' Hr W B Ho H)|].
    set (o' := Z.max o offset) in *. set (l' := l - Z.max 0 (offset - o)) in *.
    assert (Hl' : 0 < l') by (subst l'; lia).
    assert (Hsum : o' + l' = o + l) by (subst o' l'; lia).
    assert (B1 : rs_bound (o' + l') rv) by (eapply rs_bound_mono; [exact B|subst o'; lia]).
    destruct (add_facts rv 0 o' (o' + l') (o' + l') W B1 ltac:(subst o'; lia) ltac:(lia))
      as (W' & B' & S' & O').
    assert (Z0 : rs_overlap o' (o' + l') rv = 0)
      by (apply (overlap_zero_bound rv offset); [exact B|subst o'; lia]).
    destruct (IH (o' + l') _ _ rv' ub' Hr W' B' ltac:(lia) H) as (A1 & A2 & A3 & A4).
    repeat split; auto; lia.
Qed.

Lemma asm_ensure_ok a e ordered a1 :
  0 <= e -> asm_ok a e -> asm_ensure a ordered = Some a1 -> asm_ok a1 e /\ a_read a1 = a_read a.
Proof.
  intros He [H0 H] En. unfold asm_ensure in En.
  destruct (a_mode a) as [cs|rv ub] eqn:M; destruct ordered; try discriminate.
  1, 3: inversion En; subst; split; [|reflexivity]; unfold asm_ok; rewrite M; auto.
  destruct H as [Hr Hc].
  destruct (dedup_chunks cs (a_read a) (rs_add 0 (a_read a) []) 0) as [rv ub] eqn:D.
  inversion En; subst; clear En. split; [|reflexivity].
  assert (W0 : rs_wf 0 (rs_add 0 (a_read a) []) /\ rs_bound (a_read a) (rs_add 0 (a_read a) []) /\
               rs_size (rs_add 0 (a_read a) []) = a_read a).
  { unfold rs_add. destruct (0 <? a_read a) eqn:E; cbn; repeat split; lia. }
  destruct W0 as (W0 & B0 & S0).
  destruct (dedup_ok e cs _ _ _ _ _ Hc W0 B0 ltac:(lia) D) as (A1 & A2 & A3 & A4).
  unfold asm_ok; cbn [a_read a_mode]. repeat split; auto; lia.
Qed.
