(** NewReno never reports a window below two datagrams — for all call histories, all arguments
    and all outcomes of the float product. *)
From QV Require Import Lib.Tac Lib.Chk Lib.Corr Proofs.ChkProofs Proofs.RunInduction Model.NewReno.
Open Scope Z_scope.

Definition inv (s : st) : Prop := 0 <= mtu s /\ 2 * mtu s <= window s.

Lemma build_inv w m : 0 <= m -> 2 * m <= w -> inv (build w m).
Proof. intros Hm Hw. unfold build. split; cbn [mtu window]; lia. Qed.

(** [on_ack] leaves the MTU alone and only ever adds to the window. *)
Lemma on_ack_inv s sent bytes al :
  inv s -> 0 <= bytes -> match on_ack s sent bytes al with Some s' => inv s' | None => True end.
Proof.
  intros [Hm Hw] Hb. unfold on_ack, obind.
  destruct (nz al || (sent <=? rec_start s)); [split; assumption|].
  destruct (window s <? ssthresh s).
  - destruct (cadd (window s) bytes) as [w|] eqn:Ew; [|exact I]. apply cadd_some in Ew as [-> _].
    destruct (ssthresh s <=? _); split; cbn [mtu window]; lia.
  - destruct (cadd (bytes_acked s) bytes) as [ba|]; [|exact I].
    destruct (window s <=? ba); [|split; cbn [mtu window]; lia].
    destruct (cadd (window s) (mtu s)) as [w|] eqn:Ew; [|exact I]. apply cadd_some in Ew as [-> _].
    split; cbn [mtu window]; lia.
Qed.

Lemma on_congestion_event_inv s now sent p o : inv s -> inv (on_congestion_event s now sent p o).
Proof.
  intros [Hm Hw]. unfold on_congestion_event, min_window.
  destruct (sent <=? rec_start s); [split; assumption|]. destruct (nz p); split; cbn [mtu window]; lia.
Qed.

Lemma on_mtu_update_inv s m : 0 <= m -> inv (on_mtu_update s m).
Proof. intro Hm. unfold on_mtu_update, min_window. split; cbn [mtu window]; lia. Qed.

Lemma step_inv s op o :
  wf_op op -> inv s -> match step s op o with Some s' => inv s' | None => True end.
Proof.
  intros Hwf Hi. unfold step. destruct op as [|c a]; [exact Hi|]. apply wf_tail in Hwf.
  destruct (c =? 2); [apply on_ack_inv; [exact Hi|apply nth_nonneg, Hwf]|].
  destruct (c =? 4); [apply on_congestion_event_inv, Hi|].
  destruct (c =? 6); [apply on_mtu_update_inv, nth_nonneg, Hwf|exact Hi].
Qed.

Lemma steps_cons s x l :
  steps s (x :: l) = match step s (fst x) (snd x) with Some s' => steps s' l | None => None end.
Proof. destruct x; reflexivity. Qed.

Theorem newreno_floor : forall w m l s',
  0 <= m -> 2 * m <= w ->
  Forall (fun p => wf_op (fst p)) l ->
  steps (build w m) l = Some s' ->
  2 * mtu s' <= window s'.
Proof.
  intros w m l s' Hm Hw Hwf H.
  exact (proj2 (run_invariant _ (fun s => s) steps (fun s => eq_refl) steps_cons _ inv
                  (fun s x => step_inv s (fst x) (snd x)) l _ s' Hwf (build_inv w m Hm Hw) H)).
Qed.

(** The float product [run] uses as its oracle value is exact below 2^24. *)
Lemma f32_half_small w : 0 <= w < 2 ^ 24 -> f32_half w = w / 2.
Proof.
  intro H. unfold f32_half, round_f32. destruct (w <? 2 ^ 24) eqn:E; [reflexivity|lia].
Qed.
