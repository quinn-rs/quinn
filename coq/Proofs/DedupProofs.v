(** Proofs about Model/Dedup.v: [seen] is the abstract membership ("reported duplicate"); [insert]
    answers [seen] and extends it by exactly the inserted number and what falls left of the window. *)
From QV Require Import Lib.Tac Lib.Corr Model.Dedup.
Open Scope Z_scope.

Definition seen (d : Dedup.t) (m : Z) : bool :=
  (m <? next d) &&
  ((WINDOW_SIZE <=? next d - 1 - m) || (m =? next d - 1) || Z.testbit (window d) (next d - 2 - m)).

Lemma BITS_pos : 0 < BITS.
Proof. reflexivity. Qed.

Lemma testbit_one k : Z.testbit 1 k = (k =? 0).
Proof.
  destruct (Z.eq_dec k 0) as [->|N]; [reflexivity|].
  destruct (Z.lt_ge_cases k 0) as [L|G].
  - rewrite Z.testbit_neg_r by lia. lia.
  - change 1 with (2 ^ 0). rewrite Z.pow2_bits_eqb by lia. lia.
Qed.

(** the old highest number gets bit [diff], older ones move up by [diff + 1] *)
Lemma advance_bit w diff i :
  0 <= diff -> 0 <= i < BITS ->
  Z.testbit (if diff <? BITS then Z.shiftl (Z.lor (Z.shiftl w 1 mod W_MOD) 1) diff mod W_MOD
             else 0) i =
  (i =? diff) || ((diff <? i) && Z.testbit w (i - diff - 1)).
Proof.
  intros Hd Hi. unfold W_MOD. destruct (diff <? BITS) eqn:D.
  - rewrite Z.mod_pow2_bits_low, Z.shiftl_spec by lia.
    destruct (diff <? i) eqn:K.
    + rewrite Z.lor_spec, testbit_one, Z.mod_pow2_bits_low, Z.shiftl_spec by lia.
      destruct (Z.testbit w (i - diff - 1)); lia.
    + destruct (i =? diff) eqn:K0.
      * replace (i - diff) with 0 by lia. rewrite Z.lor_spec, orb_true_r. reflexivity.
      * rewrite Z.testbit_neg_r by lia. reflexivity.
  - rewrite Z.bits_0. destruct (Z.testbit w (i - diff - 1)); lia.
Qed.

Lemma insert_cases d p d' dup :
  insert d p = Some (d', dup) ->
  (* right of the window, which advances *)
  (next d <= p < U64_MAX /\ dup = false /\ next d' = p + 1 /\
   forall i, 0 <= i < BITS ->
     Z.testbit (window d') i =
     (i =? p - next d) || ((p - next d <? i) && Z.testbit (window d) (i - (p - next d) - 1))) \/
  (* inside the window: its bit is set *)
  (0 <= next d - 2 - p < BITS /\ dup = Z.testbit (window d) (next d - 2 - p) /\
   next d' = next d /\
   forall i, Z.testbit (window d') i = Z.testbit (window d) i || (i =? next d - 2 - p)) \/
  (* the highest number so far, or left of the window *)
  (p < next d /\ (p = next d - 1 \/ WINDOW_SIZE <= next d - 1 - p) /\ dup = true /\ d' = d).
Proof.
  unfold insert, WINDOW_SIZE. intros H.
  destruct (next d <=? p) eqn:E1.
  - destruct (U64_MAX <=? p) eqn:E2; [discriminate|]. injection H as <- <-. left.
    cbn [next window]. repeat split; try lia. intros i Hi. apply advance_bit; lia.
  - destruct (next d - 1 - p <? 1 + BITS) eqn:E2;
      [|injection H as <- <-; right; right; repeat split; lia].
    destruct (1 <=? next d - 1 - p) eqn:E3; injection H as <- <-; right;
      [left|right; repeat split; lia].
    replace (next d - 1 - p - 1) with (next d - 2 - p) by lia. cbn [next window].
    repeat split; try lia. intros i.
    rewrite Z.lor_spec, Z.shiftl_1_l. destruct (Z.lt_ge_cases i 0) as [N|N].
    + rewrite !(Z.testbit_neg_r _ _ N). lia.
    + rewrite Z.pow2_bits_eqb by lia. rewrite (Z.eqb_sym i). reflexivity.
Qed.

Lemma insert_total d p : p < U64_MAX -> exists d' dup, insert d p = Some (d', dup).
Proof.
  intros Hp. unfold insert. destruct (next d <=? p).
  - destruct (U64_MAX <=? p) eqn:A; [lia|]. eauto.
  - destruct (next d - 1 - p <? WINDOW_SIZE); [destruct (1 <=? next d - 1 - p)|]; eauto.
Qed.

Lemma insert_dup d p d' dup :
  insert d p = Some (d', dup) -> dup = seen d p.
Proof.
  intros H.
  destruct (insert_cases _ _ _ _ H) as [(Hp & -> & _)|[(Hp & -> & _)|(Hp & Hq & -> & _)]];
    unfold seen, WINDOW_SIZE in *.
  (* the window bit is the one atom [lia] cannot read *)
  all: destruct (Z.testbit (window d) (next d - 2 - p)); lia.
Qed.

Lemma insert_next d p d' dup :
  insert d p = Some (d', dup) -> next d' = Z.max (next d) (p + 1).
Proof.
  intros H.
  destruct (insert_cases _ _ _ _ H) as [(Hp & _ & -> & _)|[(Hp & _ & -> & _)|(Hp & _ & _ & ->)]];
    lia.
Qed.

Lemma insert_seen d p d' dup m :
  insert d p = Some (d', dup) ->
  seen d' m = seen d m || (m =? p) || (m <? next d') && (WINDOW_SIZE <=? next d' - 1 - m).
Proof.
  intros H.
  unfold seen, WINDOW_SIZE.
  destruct (insert_cases _ _ _ _ H) as [(Hp & _ & -> & Hw)|[(Hp & _ & -> & Hw)|(Hp & Hq & _ & ->)]].
  - destruct (Z.lt_ge_cases (p - 1 - m) BITS) as [A|A];
      [destruct (Z.lt_ge_cases m p) as [B|B]|].
    + replace (p + 1 - 2 - m) with (p - 1 - m) by lia. rewrite Hw by lia.
      replace (p - 1 - m - (p - next d) - 1) with (next d - 2 - m) by lia.
      destruct (Z.testbit (window d) (next d - 2 - m)); lia.
    + rewrite (Z.testbit_neg_r _ (p + 1 - 2 - m)), (Z.testbit_neg_r _ (next d - 2 - m)) by lia.
      lia.
    + destruct (Z.testbit (window d') (p + 1 - 2 - m));
        destruct (Z.testbit (window d) (next d - 2 - m)); lia.
  - rewrite Hw. destruct (Z.testbit (window d) (next d - 2 - m)); lia.
  - destruct (Z.testbit (window d) (next d - 2 - m)) eqn:T; try lia.
    destruct (Z.eq_dec m p) as [->|N]; [|lia].
    unfold WINDOW_SIZE in Hq. lia.
Qed.

Fixpoint inserts (d : Dedup.t) (l : list Z) : option (Dedup.t * list bool) :=
  match l with
  | [] => Some (d, [])
  | p :: l' =>
      match insert d p with
      | None => None
      | Some (d', dup) =>
          match inserts d' l' with
          | None => None
          | Some (d'', ds) => Some (d'', dup :: ds)
          end
      end
  end.

(** [d] represents the set [S] of inserted numbers *)
Definition Spec (d : Dedup.t) (S : list Z) : Prop :=
  next d = maxl S + 1 /\
  forall m, 0 <= m -> seen d m = mem m S || (m + WINDOW_SIZE <=? maxl S).

Lemma maxl_ge S : -1 <= maxl S.
Proof. induction S as [|x S IH]; cbn [maxl fold_right]; [lia|]. fold (maxl S). lia. Qed.

Lemma maxl_cons x S : maxl (x :: S) = Z.max x (maxl S).
Proof. reflexivity. Qed.

Lemma mem_le_maxl m S : mem m S = true -> m <= maxl S.
Proof.
  induction S as [|x S IH]; cbn [mem]; [discriminate|].
  rewrite maxl_cons, orb_true_iff, Z.eqb_eq. intros [->|H]; [lia|]. apply IH in H. lia.
Qed.

Lemma spec_init : Spec init [].
Proof.
  split; [reflexivity|]. intros m Hm. unfold seen, init, WINDOW_SIZE.
  cbn [next window mem maxl fold_right]. pose proof BITS_pos. rewrite Z.bits_0. lia.
Qed.

Lemma spec_step d S p d' dup :
  Spec d S -> 0 <= p -> insert d p = Some (d', dup) ->
  Spec d' (p :: S) /\ dup = mem p S || (p + WINDOW_SIZE <=? maxl S).
Proof.
  intros [Hn Hs] Hp H. split; [split|].
  - rewrite (insert_next _ _ _ _ H), maxl_cons. lia.
  - intros m Hm. rewrite (insert_seen _ _ _ _ m H), Hs by exact Hm.
    rewrite (insert_next _ _ _ _ H), Hn, maxl_cons. cbn [mem].
    pose proof (maxl_ge S) as G. unfold WINDOW_SIZE. pose proof BITS_pos.
    destruct (mem m S); lia.
  - rewrite (insert_dup _ _ _ _ H). apply Hs. exact Hp.
Qed.

Lemma mem_app x a b : mem x (a ++ b) = mem x a || mem x b.
Proof. induction a as [|y a IH]; cbn [mem app]; [reflexivity|]. rewrite IH, orb_assoc. reflexivity. Qed.

Lemma maxl_app a b : maxl (a ++ b) = Z.max (maxl a) (maxl b).
Proof.
  induction a as [|y a IH]; cbn [app].
  - pose proof (maxl_ge b). cbn [maxl fold_right]. lia.
  - rewrite !maxl_cons, IH. lia.
Qed.

Lemma mem_rev x l : mem x (rev l) = mem x l.
Proof.
  induction l as [|y l IH]; [reflexivity|]. cbn [rev]. rewrite mem_app, IH. cbn [mem].
  rewrite orb_false_r. apply orb_comm.
Qed.

Lemma maxl_rev l : maxl (rev l) = maxl l.
Proof.
  induction l as [|x l IH]; [reflexivity|]. cbn [rev]. rewrite maxl_app, IH, !maxl_cons.
  change (maxl []) with (-1). pose proof (maxl_ge l). lia.
Qed.

Lemma inserts_char : forall l d0 S0 d ds,
  Forall (fun p => 0 <= p) l ->
  Spec d0 S0 -> inserts d0 l = Some (d, ds) ->
  Spec d (rev l ++ S0) /\
  forall j p, nth_error l j = Some p ->
    nth_error ds j =
    Some (mem p (rev (firstn j l) ++ S0) || (p + WINDOW_SIZE <=? maxl (rev (firstn j l) ++ S0))).
Proof.
  induction l as [|p0 l IH]; intros d0 S0 d ds HF HS H.
  - cbn [inserts] in H. injection H as <- <-. split; [exact HS|]. intros [|j] p; discriminate.
  - cbn [inserts] in H. destruct (insert d0 p0) as [[d1 dup]|] eqn:E; [|discriminate].
    destruct (inserts d1 l) as [[d2 ds']|] eqn:E2; [|discriminate]. injection H as <- <-.
    inversion HF as [|? ? Hp0 HF']; subst.
    destruct (spec_step _ _ _ _ _ HS Hp0 E) as [HS1 Hdup].
    destruct (IH _ _ _ _ HF' HS1 E2) as [HS2 Hj]. split.
    + cbn [rev]. rewrite <- app_assoc. exact HS2.
    + intros [|j] p Hp.
      * cbn [nth_error] in Hp. injection Hp as <-. cbn [nth_error firstn rev app]. rewrite Hdup.
        reflexivity.
      * cbn [nth_error] in Hp. cbn [nth_error firstn rev]. rewrite (Hj _ _ Hp), <- app_assoc.
        reflexivity.
Qed.

Lemma inserts_init l d ds :
  Forall (fun p => 0 <= p) l -> inserts init l = Some (d, ds) ->
  Spec d (rev l) /\
  forall j p, nth_error l j = Some p ->
    nth_error ds j = Some (mem p (firstn j l) || (p + WINDOW_SIZE <=? maxl (firstn j l))).
Proof.
  intros HF H. destruct (inserts_char l init [] d ds HF spec_init H) as [HS Hj].
  rewrite app_nil_r in HS. split; [exact HS|]. intros j p Hp.
  rewrite (Hj j p Hp), app_nil_r, mem_rev, maxl_rev. reflexivity.
Qed.

Lemma mem_In x l : mem x l = true <-> In x l.
Proof.
  induction l as [|y l IH]; cbn [mem In]; [split; [discriminate|tauto]|].
  rewrite orb_true_iff, Z.eqb_eq, IH. split; intros [A|A]; auto.
Qed.

(** Every number already inserted — whatever happened in between — is reported as a duplicate,
    and so is every number that lies left of the window. *)
Theorem dedup_at_most_once : forall l d ds,
  Forall (fun p => 0 <= p) l ->
  inserts init l = Some (d, ds) ->
  forall j p, nth_error l j = Some p ->
    (In p (firstn j l) \/ p + WINDOW_SIZE <= maxl (firstn j l)) ->
    nth_error ds j = Some true.
Proof.
  intros l d ds HF H j p Hp Hc.
  destruct (inserts_init l d ds HF H) as [_ Hj].
  rewrite (Hj _ _ Hp). f_equal. apply orb_true_iff.
  destruct Hc as [A|A]; [left; apply mem_In; exact A|right; lia].
Qed.

Lemma nth_error_firstn_lt {A} : forall (l : list A) i j, (i < j)%nat ->
  nth_error (firstn j l) i = nth_error l i.
Proof.
  induction l as [|x l IH]; intros i j H.
  - rewrite firstn_nil. reflexivity.
  - destruct j as [|j]; [lia|]. destruct i as [|i]; [reflexivity|].
    cbn [firstn nth_error]. apply IH. lia.
Qed.

Corollary dedup_new_at_most_once : forall l d ds,
  Forall (fun p => 0 <= p) l ->
  inserts init l = Some (d, ds) ->
  forall i j p, (i < j)%nat -> nth_error l i = Some p -> nth_error l j = Some p ->
    nth_error ds j = Some true.
Proof.
  intros l d ds HF H i j p Hij Hi Hj. apply (dedup_at_most_once l d ds HF H j p Hj). left.
  apply nth_error_In with (n := i). rewrite nth_error_firstn_lt by exact Hij. exact Hi.
Qed.

(** No false duplicates inside the window. *)
Theorem dedup_first_time_fresh_in_window : forall l d ds,
  Forall (fun p => 0 <= p) l ->
  inserts init l = Some (d, ds) ->
  forall j p, nth_error l j = Some p ->
    ~ In p (firstn j l) -> maxl (firstn j l) < p + WINDOW_SIZE ->
    nth_error ds j = Some false.
Proof.
  intros l d ds HF H j p Hp Hn Hw.
  destruct (inserts_init l d ds HF H) as [_ Hj].
  rewrite (Hj _ _ Hp). f_equal. apply orb_false_iff. split; [|lia].
  destruct (mem p (firstn j l)) eqn:M; [|reflexivity]. apply mem_In in M. contradiction.
Qed.

Theorem dedup_total : forall l d0,
  Forall (fun p => p < U64_MAX) l -> exists d ds, inserts d0 l = Some (d, ds) /\ length ds = length l.
Proof.
  induction l as [|p l IH]; intros d0 HF.
  - exists d0, []. split; reflexivity.
  - inversion HF as [|? ? Hp HF']; subst.
    destruct (insert_total d0 p Hp) as (d1 & dup & E).
    destruct (IH d1 HF') as (d2 & ds & E2 & L). exists d2, (dup :: ds).
    cbn [inserts]. rewrite E, E2. split; [reflexivity|]. cbn [length]. lia.
Qed.

Theorem dedup_next_is_highest_plus_one : forall l d ds,
  Forall (fun p => 0 <= p) l ->
  inserts init l = Some (d, ds) -> next d = maxl l + 1.
Proof.
  intros l d ds HF H. destruct (inserts_init l d ds HF H) as [[Hn _] _].
  rewrite Hn, maxl_rev. reflexivity.
Qed.

Theorem seen_spec : forall l d ds,
  Forall (fun p => 0 <= p) l ->
  inserts init l = Some (d, ds) ->
  forall m, 0 <= m -> seen d m = mem m l || (m + WINDOW_SIZE <=? maxl l).
Proof.
  intros l d ds HF H m Hm. destruct (inserts_init l d ds HF H) as [[_ Hs] _].
  rewrite (Hs m Hm), mem_rev, maxl_rev. reflexivity.
Qed.

Lemma ones_bit n i : 0 <= n -> 0 <= i -> Z.testbit (2 ^ n - 1) i = (i <? n).
Proof. rewrite Z.sub_1_r, <- Z.ones_equiv. apply Z.testbit_ones_nonneg. Qed.

(** the mask built by [smallest_missing_in_interval] *)
Definition qmask (so rl : Z) : Z :=
  if rl =? BITS then W_MOD - 1 else Z.shiftl (2 ^ rl - 1) so mod W_MOD.

Lemma qmask_bit so rl i :
  0 < rl <= BITS -> 0 <= i ->
  Z.testbit (qmask so rl) i = (i <? BITS) && ((rl =? BITS) || (so <=? i) && (i <? so + rl)).
Proof.
  intros Hrl Hi. unfold qmask, W_MOD.
  destruct (rl =? BITS) eqn:E.
  - rewrite ones_bit by lia. rewrite andb_true_r. reflexivity.
  - destruct (i <? BITS) eqn:I; cbn [andb orb].
    + rewrite Z.mod_pow2_bits_low, Z.shiftl_spec by lia.
      destruct (so <=? i) eqn:S; cbn [andb].
      * rewrite ones_bit by lia. lia.
      * apply Z.testbit_neg_r. lia.
    + apply Z.mod_pow2_bits_high. lia.
Qed.

Lemma qmask_nonneg so rl : 0 <= qmask so rl.
Proof.
  unfold qmask, W_MOD. assert (0 < 2 ^ BITS) by reflexivity.
  destruct (rl =? BITS); [lia|]. apply Z.mod_pos_bound. assumption.
Qed.

(** [off] as [smallest_missing_in_interval] computes it is one past the highest set bit *)
Lemma top_bit g : 0 <= g ->
  let off := if g =? 0 then 0 else Z.log2 g + 1 in
  0 <= off /\ (0 < off -> Z.testbit g (off - 1) = true) /\
  forall j, off <= j -> Z.testbit g j = false.
Proof.
  intros Hg. cbv zeta. destruct (g =? 0) eqn:E.
  - apply Z.eqb_eq in E. subst g. split; [lia|]. split; [lia|]. intros j _. apply Z.bits_0.
  - pose proof (Z.log2_nonneg g). split; [lia|]. split.
    + intros _. rewrite Z.add_simpl_r. apply Z.bit_log2. lia.
    + intros j Hj. apply Z.bits_above_log2; lia.
Qed.

(** Under its documented preconditions the query does not panic and answers exactly. *)
Lemma smallest_missing_spec d l u :
  0 <= l -> l <= u -> u <= next d - 1 ->
  exists r, smallest_missing d l u = Some r /\
    match r with
    | None => forall m, l < m < u -> seen d m = true
    | Some q => l < q < u /\ seen d q = false /\ forall m, l < m < q -> seen d m = true
    end.
Proof.
  intros Hl H1 H3. unfold smallest_missing.
  replace ((l <=? u) && (1 <=? next d) && (u <=? next d - 1)) with true by lia.
  cbv zeta. pose proof BITS_pos as HB.
  destruct (Z_le_gt_dec u (l + 1)) as [He|Hne].
  { (* nothing lies strictly between the bounds *)
    exists None. split; [|intros m Hm; lia].
    set (so := Z.max _ 1 - 1). set (rl := Z.min _ BITS).
    destruct (BITS <=? so); [reflexivity|]. destruct (rl =? 0) eqn:E; [reflexivity|lia]. }
  (* otherwise packet [m] of the interval is bit [next d - 2 - m]: [u - l - 1] bits from [so] on *)
  rewrite (Z.max_l (u - 1) 0) by lia.
  replace (Z.max (next d - 1 - (u - 1)) 1 - 1) with (next d - 1 - u) by lia.
  rewrite (Z.max_l (next d - 1 - (l + 1)) 0) by lia.
  replace (Z.max (next d - 1 - (l + 1) - (next d - 1 - u)) 0) with (u - l - 1) by lia.
  set (h := next d - 1). set (so := h - u). set (rl := Z.min (u - l - 1) BITS).
  fold (qmask so rl). set (gaps := Z.land (Z.lnot (window d)) (qmask so rl)).
  destruct (BITS <=? so) eqn:E1.
  { exists None. split; [reflexivity|]. intros m Hm. unfold seen, WINDOW_SIZE.
    destruct (Z.testbit (window d) (next d - 2 - m)); lia. }
  destruct (rl =? 0) eqn:E2; [lia|].
  assert (Hbit : forall i, 0 <= i -> Z.testbit gaps i =
            negb (Z.testbit (window d) i) &&
            ((i <? BITS) && ((rl =? BITS) || (so <=? i) && (i <? so + rl)))).
  { intros i Hi. unfold gaps. rewrite Z.land_spec, Z.lnot_spec, qmask_bit by lia. reflexivity. }
  assert (Hseen : forall m, l < m < u -> Z.testbit gaps (h - 1 - m) = negb (seen d m)).
  { intros m Hm. rewrite Hbit by lia. unfold seen, WINDOW_SIZE.
    replace (next d - 2 - m) with (h - 1 - m) by lia.
    destruct (Z.testbit (window d) (h - 1 - m)); lia. }
  assert (Hg : 0 <= gaps) by (apply Z.land_nonneg; right; apply qmask_nonneg).
  destruct (top_bit gaps Hg) as (Ho0 & Htop & Habove).
  set (off := if gaps =? 0 then 0 else Z.log2 gaps + 1) in *.
  (* the top gap bit lies inside the mask, hence belongs to a number above [l] *)
  assert (Ho : off <= h - l - 1).
  { destruct (Z.eq_dec off 0) as [->|N]; [lia|]. specialize (Htop ltac:(lia)).
    rewrite Hbit in Htop by lia. destruct (Z.testbit (window d) (off - 1)); lia. }
  destruct (h <? off) eqn:E3; [lia|].
  destruct (h - off <=? u - 1) eqn:E4.
  - exists (Some (h - off)). split; [reflexivity|]. split; [lia|]. split.
    + apply negb_true_iff. rewrite <- Hseen by lia.
      replace (h - 1 - (h - off)) with (off - 1) by lia. apply Htop. lia.
    + intros m Hm. apply negb_false_iff. rewrite <- Hseen by lia. apply Habove. lia.
  - exists None. split; [reflexivity|].
    intros m Hm. apply negb_false_iff. rewrite <- Hseen by lia. apply Habove. lia.
Qed.

Theorem smallest_missing_exact : forall d l u r,
  0 <= l ->
  smallest_missing d l u = Some r ->
  match r with
  | None => forall m, l < m < u -> seen d m = true
  | Some q => l < q < u /\ seen d q = false /\ forall m, l < m < q -> seen d m = true
  end.
Proof.
  intros d l u r Hl H.
  assert (Hpre : l <= u /\ 1 <= next d /\ u <= next d - 1).
  { unfold smallest_missing in H.
    destruct ((l <=? u) && (1 <=? next d) && (u <=? next d - 1)) eqn:E; [lia|discriminate]. }
  destruct (smallest_missing_spec d l u) as (r' & Hr & Hpost); try lia.
  rewrite H in Hr. injection Hr as <-. exact Hpost.
Qed.

Theorem smallest_missing_total : forall d l u,
  0 <= l -> l <= u -> 1 <= next d -> u <= next d - 1 -> smallest_missing d l u <> None.
Proof.
  intros d l u Hl H1 H2 H3. destruct (smallest_missing_spec d l u Hl H1 H3) as (r & -> & _).
  discriminate.
Qed.
