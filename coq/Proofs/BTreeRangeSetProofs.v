(** BTree RangeSet model (Model/RangeSet.v): representation invariant and set semantics of
    [insert] and [replace] (with the Replace iterator drained by a for loop and then dropped). *)
From QV Require Import Lib.Tac Lib.Corr Lib.RangeSpec Model.RangeSet Proofs.RangeSetProofs.
Open Scope Z_scope.

(** all keys of [m] are greater than [k] *)
Definition keys_gt (k : Z) (m : rmap) : Prop := forall s e, In (s, e) m -> k < s.

Lemma wfb_keys_gt lo m : wfb lo m -> keys_gt lo m.
Proof. intros W s e I. apply (wfb_in lo m s e W I). Qed.

Lemma pred_none_keys lo x m : wfb lo m -> pred x m = None -> keys_gt x m.
Proof.
  destruct m as [|[s e] r]; intros W H; [intros a b []|].
  cbn [pred] in H. destruct (s <=? x) eqn:E; [destruct (pred x r); discriminate|].
  apply wfb_keys_gt. cbn [wfb] in *. split; [lia | exact (proj2 W)].
Qed.

Lemma pred_some_bounds lo x m ps pe : wfb lo m -> pred x m = Some (ps, pe) -> lo < ps <= x.
Proof.
  revert lo; induction m as [|[s e] r IH]; intros lo W H; [discriminate|].
  cbn [pred] in H. destruct (s <=? x) eqn:E; [|discriminate].
  cbn [wfb] in W. destruct W as (W1 & W2 & W3).
  destruct (pred x r) as [p|] eqn:P; inversion H; subst.
  - specialize (IH e W3 eq_refl). lia.
  - lia.
Qed.

Lemma pred_front lo k m : wfb lo m -> k <= lo -> pred k m = None.
Proof.
  destruct m as [|[s e] r]; [reflexivity|]. intros [W _] H.
  cbn [pred]. destruct (s <=? k) eqn:E; [lia | reflexivity].
Qed.

Lemma put_front lo k v m : wfb lo ((k, v) :: m) -> put k v m = (k, v) :: m.
Proof.
  destruct m as [|[s e] r]; [reflexivity|]. cbn [wfb put]. intros (_ & V & W & _).
  destruct (k <? s) eqn:E; [reflexivity | lia].
Qed.

Lemma drain_stop lo xs xe r : wfb lo ((xs, xe) :: r) -> drain xs xe r = ([], r, xe).
Proof.
  destruct r as [|[s e] t]; [reflexivity|]. cbn [wfb drain]. intros (_ & V & W & _).
  destruct (xs <? s) eqn:E1; [|lia]. destruct (xe <? s) eqn:E2; [reflexivity | lia].
Qed.

Lemma put_skip s e k v m : s < k -> put k v ((s, e) :: m) = (s, e) :: put k v m.
Proof.
  intros H. cbn [put]. destruct (k <? s) eqn:A; [lia|]. destruct (k =? s) eqn:B; [lia | reflexivity].
Qed.

Lemma drain_skip s e xs xe m : s <= xs ->
  drain xs xe ((s, e) :: m) = let '(its, r', xe') := drain xs xe m in (its, (s, e) :: r', xe').
Proof. intros H. cbn [drain]. destruct (xs <? s) eqn:A; [lia | reflexivity]. Qed.

(** what [replace] does once it has fixed the key [k]: iterate, drop the iterator, put *)
Definition settle (k xe1 : Z) (m : rmap) (pitem : list (Z * Z)) : list (Z * Z) * rmap :=
  let '(its, m2, xe2) := drain k xe1 m in
  let '(_, m3, xe3) := drain k xe2 m2 in
  (pitem ++ its, put k xe3 m3).

Lemma replace_settle xs xe m :
  replace xs xe m =
  match pred xs m with
  | Some (ps, pe) =>
      if xs <=? pe
      then settle (Z.min xs ps) (Z.max xe pe) (rm ps m)
                  (if xs =? Z.min xe pe then [] else [(xs, Z.min xe pe)])
      else settle xs xe m []
  | None => settle xs xe m []
  end.
Proof.
  unfold replace, settle. destruct (pred xs m) as [[ps pe]|]; [destruct (xs <=? pe)|]; reflexivity.
Qed.

Lemma settle_skip s e k xe1 m pitem : s < k ->
  settle k xe1 ((s, e) :: m) pitem
  = (fst (settle k xe1 m pitem), (s, e) :: snd (settle k xe1 m pitem)).
Proof.
  intros H. unfold settle.
  rewrite drain_skip by lia. destruct (drain k xe1 m) as [[its m2] xe2].
  rewrite drain_skip by lia. destruct (drain k xe2 m2) as [[its' m3] xe3].
  rewrite put_skip by lia. reflexivity.
Qed.

Lemma absorb_put_skip s e k xe m : s < k ->
  (let '(m2, xe2) := absorb k xe ((s, e) :: m) in (true, put k xe2 m2))
  = (fst (let '(m2, xe2) := absorb k xe m in (true, put k xe2 m2)),
     (s, e) :: snd (let '(m2, xe2) := absorb k xe m in (true, put k xe2 m2))).
Proof.
  intros H. cbn [absorb]. destruct (k <? s) eqn:A; [lia|].
  destruct (absorb k xe m) as [m2 xe2]. rewrite put_skip by lia. reflexivity.
Qed.

Definition in_its (x : Z) (its : list (Z * Z)) : Prop := exists a b, In (a, b) its /\ a <= x < b.

Fixpoint its_sorted (lo hi : Z) (its : list (Z * Z)) : Prop :=
  match its with
  | [] => True
  | (a, b) :: t => lo <= a /\ a < b /\ b <= hi /\ its_sorted b hi t
  end.

Lemma in_its_cons x a b t : in_its x ((a, b) :: t) <-> a <= x < b \/ in_its x t.
Proof. exact (mem_cons x a b t). Qed.

Lemma in_its_nil x : ~ in_its x [].
Proof. exact (mem_nil x). Qed.

Lemma its_sorted_lower lo hi its x : its_sorted lo hi its -> in_its x its -> lo <= x < hi.
Proof.
  revert lo; induction its as [|[a b] t IH]; intros lo S I; [now apply in_its_nil in I|].
  cbn [its_sorted] in S. destruct S as (S1 & S2 & S3 & S4).
  apply in_its_cons in I as [I|I]; [lia|]. specialize (IH b S4 I). lia.
Qed.

Lemma its_sorted_empty lo its : its_sorted lo lo its -> its = [].
Proof. destruct its as [|[a b] t]; cbn [its_sorted]; intros; auto. lia. Qed.

Lemma absorb_merge_next r : forall lo xs xe, wfb lo r -> xs <= lo ->
  ArrayRangeSet.merge_next xs xe r = (xs, snd (absorb xs xe r)) :: fst (absorb xs xe r).
Proof.
  induction r as [|[s e] t IH]; intros lo xs xe W Hlo; cbn [absorb ArrayRangeSet.merge_next];
    [reflexivity|].
  cbn [wfb] in W. destruct W as (W1 & W2 & W3). destruct (xs <? s) eqn:E1; [|lia].
  rewrite Z.leb_antisym. destruct (xe <? s); [reflexivity|]. apply (IH e); [exact W3|lia].
Qed.

Lemma absorb_spec r lo0 lo xs xe :
  wfb lo r -> lo0 < xs <= lo -> xs < xe ->
  let '(r', xe') := absorb xs xe r in
  wfb lo0 ((xs, xe') :: r') /\
  (forall x, mem x ((xs, xe') :: r') <-> mem x r \/ xs <= x < xe).
Proof.
  intros W Hlo Hlt.
  destruct (merge_next_spec r lo lo0 xs xe W ltac:(lia) Hlt ltac:(lia)) as [S1 S2].
  rewrite (absorb_merge_next r lo) in S1, S2 by (auto; lia).
  destruct (absorb xs xe r) as [r' xe']. split; [exact S1|]. intros x. rewrite S2. tauto.
Qed.

(** The iterator stops after removing a range that only touches, where [absorb] goes on; on a
    well-formed map the range after that is not adjacent, so both end alike. *)
Lemma drain_spec r : forall lo xs xe,
  wfb lo r -> xs <= lo ->
  let '(its, r', xe') := drain xs xe r in
  absorb xs xe r = (r', xe') /\ its_sorted lo xe its /\
  (forall x, x < xe -> (mem x r <-> in_its x its)).
Proof.
  induction r as [|[s e] t IH]; intros lo xs xe W Hlo.
  - cbn [drain absorb its_sorted]. split; [reflexivity|]. split; [exact I|]. intros x _. reflexivity.
  - cbn [wfb] in W. destruct W as (W1 & W2 & W3).
    assert (Gt : forall x, mem x t -> e < x) by (intros x; apply wfb_mem_gt; exact W3).
    assert (Lo : forall x, x < s -> (mem x ((s, e) :: t) <-> in_its x [])).
    { intros x Hx. rewrite mem_cons.
      split; [intros [M|M]; [lia | apply Gt in M; lia] | intros M; now apply in_its_nil in M]. }
    cbn [drain absorb]. destruct (xs <? s) eqn:E1; [|lia].
    destruct (xe <? s) eqn:E2.
    + (* no overlap: stop *)
      split; [reflexivity|]. split; [exact I|]. intros x Hx. apply Lo. lia.
    + specialize (IH e xs (Z.max xe e) W3 ltac:(lia)). rewrite (Z.max_comm e xe).
      destruct (Z.le_gt_cases xe e) as [Le|Lt].
      * (* reaches xe or beyond: item (s, xe) unless it only touches, then stop *)
        replace (Z.min xe e) with xe by lia. replace (Z.max xe e) with e in * by lia.
        assert (St : drain xs e t = ([], t, e)).
        { apply (drain_stop (xs - 1)). cbn [wfb]. repeat split; auto; lia. }
        rewrite St in *. destruct IH as [A _]. (* A : absorb xs e t = (t, e) *)
        destruct (s =? xe) eqn:E3.
        -- split; [exact A|]. split; [exact I|]. intros x Hx. apply Lo. lia.
        -- split; [exact A|]. split; [cbn [its_sorted]; lia|].
           intros x Hx. rewrite mem_cons, in_its_cons. specialize (Gt x). pose proof (in_its_nil x).
           intuition lia.
      * (* lies inside: item (s, e), continue *)
        replace (Z.min xe e) with e by lia. replace (Z.max xe e) with xe in * by lia.
        destruct (s =? e) eqn:E3; [lia|].
        destruct (drain xs xe t) as [[its t'] xe']. destruct IH as (I1 & I2 & I3).
        split; [exact I1|].
        split; [cbn [its_sorted]; repeat split; auto; lia|].
        intros x Hx. rewrite mem_cons, in_its_cons, (I3 x Hx). reflexivity.
Qed.

Lemma position_ind xs (P : Z -> rmap -> Prop) :
  (forall lo m, lo < xs -> wfb xs m -> P lo m) ->
  (forall lo s e r, lo < s -> s <= xs <= e -> s < e -> wfb e r -> P lo ((s, e) :: r)) ->
  (forall lo s e r, lo < s -> s < e -> e < xs -> wfb e r -> P e r -> P lo ((s, e) :: r)) ->
  forall m lo, wfb lo m -> lo < xs -> P lo m.
Proof.
  intros Front Head Skip. induction m as [|[s e] r IH]; intros lo W Hlo; [now apply Front|].
  cbn [wfb] in W. destruct W as (W1 & W2 & W3).
  destruct (Z.lt_ge_cases xs s); [apply Front; cbn [wfb]; auto|].
  destruct (Z.le_gt_cases xs e); [apply Head; auto; lia|].
  apply Skip; auto.
Qed.

Definition replace_post (lo xs xe : Z) (m : rmap) (res : list (Z * Z) * rmap) : Prop :=
  let '(dups, m') := res in
  wfb lo m' /\ (forall x, mem x m' <-> mem x m \/ xs <= x < xe) /\
  its_sorted xs xe dups /\ (forall x, xs <= x < xe -> (mem x m <-> in_its x dups)).

Lemma replace_skip s e r xs xe : s < e -> e < xs -> wfb e r ->
  replace xs xe ((s, e) :: r) = (fst (replace xs xe r), (s, e) :: snd (replace xs xe r)).
Proof.
  intros Hse Hex W. rewrite !replace_settle. cbn [pred].
  destruct (s <=? xs) eqn:E0; [|lia].
  destruct (pred xs r) as [[ps pe]|] eqn:P.
  - apply (pred_some_bounds _ _ _ _ _ W) in P.
    destruct (xs <=? pe) eqn:E1.
    + cbn [rm]. destruct (s =? ps) eqn:E2; [lia|]. apply settle_skip. lia.
    + apply settle_skip. lia.
  - destruct (xs <=? e) eqn:E1; [lia|]. apply settle_skip. lia.
Qed.

Lemma replace_spec m : forall lo xs xe,
  wfb lo m -> lo < xs -> xs < xe -> replace_post lo xs xe m (replace xs xe m).
Proof.
  intros lo xs xe W Hlo Hlt. revert m lo W Hlo.
  apply (position_ind xs (fun lo m => replace_post lo xs xe m (replace xs xe m))).
  - (* no predecessor *)
    intros lo m Hlo W. unfold replace. rewrite (pred_front xs xs m W) by lia.
    pose proof (absorb_spec m lo xs xs xe W ltac:(lia) Hlt) as A.
    pose proof (drain_spec m xs xs xe W (Z.le_refl xs)) as D.
    destruct (drain xs xe m) as [[its r'] xe']. destruct D as (D0 & D3 & D4).
    rewrite D0 in A. destruct A as (D1 & D2).
    rewrite (drain_stop lo xs xe' r' D1), (put_front lo xs xe' r' D1).
    unfold replace_post. cbn [app]. split; [exact D1|]. split; [exact D2|]. split; [exact D3|].
    intros x Hx. apply D4. lia.
  - (* the first range is the predecessor and overlaps or touches *)
    intros lo s e r Hlo Hs Hse W. unfold replace. cbn [pred].
    destruct (s <=? xs) eqn:E0; [|lia]. rewrite (pred_front e xs r W) by lia.
    destruct (xs <=? e) eqn:E1; [|lia]. cbn [rm]. rewrite Z.eqb_refl.
    replace (Z.min xs s) with s by lia.
    pose proof (absorb_spec r lo e s (Z.max xe e) W ltac:(lia) ltac:(lia)) as A.
    pose proof (drain_spec r e s (Z.max xe e) W ltac:(lia)) as D.
    destruct (drain s (Z.max xe e) r) as [[its r'] xe']. destruct D as (D0 & D3 & D4).
    rewrite D0 in A. destruct A as (D1 & D2).
    rewrite (drain_stop lo s xe' r' D1), (put_front lo s xe' r' D1).
    unfold replace_post. split; [exact D1|].
    split; [intros x; rewrite D2, mem_cons; intuition lia|].
    destruct (Z.le_gt_cases xe e) as [C|C].
    + replace (Z.max xe e) with e in D3 by lia. apply its_sorted_empty in D3. subst its.
      replace (Z.min xe e) with xe by lia. destruct (xs =? xe) eqn:E2; [lia|].
      cbn [app its_sorted]. split; [lia|].
      intros x Hx. rewrite mem_cons, in_its_cons. split; left; lia.
    + replace (Z.max xe e) with xe in * by lia. replace (Z.min xe e) with e by lia.
      destruct (xs =? e) eqn:E2; cbn [app its_sorted].
      * assert (xs = e) by lia. subst xs. split; [exact D3|].
        intros x Hx. rewrite mem_cons, <- (D4 x) by lia. split; [intros [H|H]; [lia | exact H] | now right].
      * split; [repeat split; auto; lia|].
        intros x Hx. rewrite mem_cons, in_its_cons, <- (D4 x) by lia. intuition lia.
  - (* the first range lies strictly before xs: skipped *)
    intros lo s e r Hlo Hse Hex W IH. rewrite replace_skip by auto. unfold replace_post in *.
    destruct (replace xs xe r) as [dups m']. cbn [fst snd]. destruct IH as (J1 & J2 & J3 & J4).
    split; [cbn [wfb]; auto|]. split; [|split; [exact J3|]].
    + intros x. rewrite !mem_cons, J2. tauto.
    + intros x Hx. rewrite mem_cons, <- (J4 x Hx). split; [intros [H|H]; [lia | exact H] | now right].
Qed.

Lemma insert_skip s e r xs xe : s < e -> e < xs -> xs < xe -> wfb e r ->
  RangeSet.insert xs xe ((s, e) :: r) =
  (fst (RangeSet.insert xs xe r), (s, e) :: snd (RangeSet.insert xs xe r)).
Proof.
  intros Hse Hex Hlt W. unfold RangeSet.insert. destruct (xe <=? xs) eqn:E; [lia|].
  cbn [pred]. destruct (s <=? xs) eqn:E0; [|lia].
  destruct (pred xs r) as [[ps pe]|] eqn:P.
  - apply (pred_some_bounds _ _ _ _ _ W) in P.
    destruct (xe <=? pe) eqn:E1; [reflexivity|].
    destruct (xs <=? pe) eqn:E2.
    + cbn [rm]. destruct (s =? ps) eqn:E3; [lia|]. apply absorb_put_skip. lia.
    + apply absorb_put_skip. lia.
  - destruct (xe <=? e) eqn:E1; [lia|]. destruct (xs <=? e) eqn:E2; [lia|].
    apply absorb_put_skip. lia.
Qed.

Lemma insert_spec m : forall lo xs xe,
  wfb lo m -> lo < xs -> xs < xe ->
  wfb lo (snd (RangeSet.insert xs xe m)) /\
  (forall x, mem x (snd (RangeSet.insert xs xe m)) <-> mem x m \/ xs <= x < xe).
Proof.
  intros lo xs xe W Hlo Hlt. revert m lo W Hlo.
  apply (position_ind xs (fun lo m => wfb lo (snd (RangeSet.insert xs xe m)) /\
    (forall x, mem x (snd (RangeSet.insert xs xe m)) <-> mem x m \/ xs <= x < xe))).
  - intros lo m Hlo W. unfold RangeSet.insert. destruct (xe <=? xs) eqn:E; [lia|].
    rewrite (pred_front xs xs m W) by lia.
    pose proof (absorb_spec m lo xs xs xe W ltac:(lia) Hlt) as D.
    destruct (absorb xs xe m) as [r' xe']. destruct D as (D1 & D2).
    rewrite (put_front lo xs xe' r' D1). cbn [snd]. split; [exact D1 | exact D2].
  - intros lo s e r Hlo Hs Hse W. unfold RangeSet.insert. destruct (xe <=? xs) eqn:E; [lia|].
    cbn [pred]. destruct (s <=? xs) eqn:E0; [|lia]. rewrite (pred_front e xs r W) by lia.
    destruct (xe <=? e) eqn:E1.
    + (* already covered by the first range *)
      cbn [snd wfb]. split; [auto|]. intros x. rewrite mem_cons. intuition lia.
    + destruct (xs <=? e) eqn:E2; [|lia]. cbn [rm]. rewrite Z.eqb_refl.
      pose proof (absorb_spec r lo e s xe W ltac:(lia) ltac:(lia)) as D.
      destruct (absorb s xe r) as [r' xe']. destruct D as (D1 & D2).
      rewrite (put_front lo s xe' r' D1). cbn [snd]. split; [exact D1|].
      intros x. rewrite D2, mem_cons. intuition lia.
  - intros lo s e r Hlo Hse Hex W [J1 J2]. rewrite insert_skip by auto. cbn [snd].
    split; [cbn [wfb]; auto|]. intros x. rewrite !mem_cons, J2. tauto.
Qed.

Lemma insert_any m lo xs xe :
  wfb lo m -> (xs < xe -> lo < xs) ->
  wfb lo (snd (RangeSet.insert xs xe m)) /\
  (forall x, mem x (snd (RangeSet.insert xs xe m)) <-> mem x m \/ xs <= x < xe).
Proof.
  intros W Hlo. destruct (Z.le_gt_cases xe xs) as [Le|Gt]; [|apply insert_spec; auto].
  unfold RangeSet.insert. destruct (xe <=? xs) eqn:E; [|lia].
  split; [exact W|]. intros x. cbn [snd]. intuition lia.
Qed.
