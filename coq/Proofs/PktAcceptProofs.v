(** Proofs about Model/PktAccept.v (connection/packet_crypto.rs): which key a packet may be
    decrypted under, and when a datagram counts as a stateless reset. *)
From QV Require Import Lib.Tac Lib.Corr Model.PacketNumber Model.PktAccept.
Open Scope Z_scope.

(** A packet is reported decrypted only under a key that is legitimate for its header
    (kinds: 0 Initial, 1 Handshake, 2 0-RTT, 3 1-RTT, 4 Retry/Version Negotiation; key ids:
    10 + space for the current keys, 20 previous and 21 next 1-RTT key, 30 the 0-RTT key). *)
Theorem decrypt_only_under_legitimate_key :
  forall kind kp pn rx ckp prev np zp sealed rok n a u,
  0 <= kind <= 4 ->
  decrypt kind kp pn rx ckp prev np zp sealed rok = Some (Decrypted n a u) ->
  n = expand 4 pn (rx + 1) /\ kind <> 4 /\
  ((kind = 2 /\ sealed = 30 /\ zp = true /\ u = false) \/
   (kind <> 2 /\ sealed = 10 + space_of kind /\ u = false /\ (kind = 3 -> kp = ckp)) \/
   (kind = 3 /\ kp <> ckp /\ sealed = 20 /\ u = false /\
    exists p, prev = Some p /\ match end_packet p with None => True | Some e => n < e end) \/
   (kind = 3 /\ kp <> ckp /\ sealed = 21 /\ u = true /\ np = true /\ rx < n /\
    match prev with Some p => update_unacked p = false | None => True end)).
Proof.
  intros kind kp pn rx ckp prev np zp sealed rok n a u Hk. unfold decrypt.
  destruct (kind =? 4) eqn:K4; [discriminate|].
  set (num := expand 4 pn (rx + 1)).
  destruct (select_key kind ((kind =? 3) && kp) ckp num prev np zp) as [[key upd]|] eqn:S; [|discriminate].
  destruct (sealed =? key) eqn:SK; cbn [negb]; [|discriminate]. apply Z.eqb_eq in SK. subst key.
  destruct rok; cbn [negb]; [|discriminate].
  destruct (upd && ((num <=? rx) || match prev with Some p => update_unacked p | None => false end)) eqn:U;
    [discriminate|].
  intros H; injection H as <- _ <-. split; [reflexivity|]. split; [lia|].
  revert S. unfold select_key.
  destruct (kind =? 2) eqn:K2.
  { destruct zp; [|discriminate]. intros S; injection S as <- <-. left. repeat split; lia. }
  destruct (Bool.eqb ((kind =? 3) && kp) ckp || negb (space_of kind =? 2)) eqn:B.
  { intros S; injection S as <- <-. right; left. repeat split; try lia.
    intros K3. apply orb_true_iff in B. destruct B as [B|B].
    - apply Bool.eqb_prop in B. rewrite <- B. subst kind. reflexivity.
    - subst kind. discriminate. }
  apply orb_false_iff in B as [B1 B2].
  assert (K3 : kind = 3).
  { unfold space_of in B2. destruct (kind =? 0) eqn:A0; [discriminate|]. destruct (kind =? 1) eqn:A1; [discriminate|]. lia. }
  subst kind. cbn [Z.eqb andb] in B1. change (3 =? 3) with true in B1. cbn [andb] in B1.
  assert (Hne : kp <> ckp) by (intros ->; rewrite Bool.eqb_reflx in B1; discriminate).
  destruct prev as [p|];
    [destruct (match end_packet p with None => true | Some pn0 => num <? pn0 end) eqn:E|].
  1: { intros S; injection S as <- <-. right; right; left.
       repeat split; try assumption; try reflexivity.
       exists p. split; [reflexivity|]. destruct (end_packet p); [lia|exact I]. }
  (* otherwise the next key: a key update *)
  all: destruct np; [|discriminate]; intros S; injection S as <- <-; cbn [andb] in U;
    apply orb_false_iff in U as [U1 U2]; right; right; right;
    repeat split; try assumption; try reflexivity; lia.
Qed.

(** Nothing but an exactly matching 16-byte tail on a datagram of at least 21 bytes is a
    stateless reset. *)
Theorem reset_only_on_exact_token : forall token pkt,
  reset_detect token pkt = true <->
  exists t, token = Some t /\ RESET_TOKEN_SIZE + 5 <= Z.of_nat (length pkt) /\ lastn 16 pkt = t.
Proof.
  intros token pkt. unfold reset_detect. rewrite andb_true_iff, Z.leb_le. split.
  - intros [L H]. destruct token as [t|]; [|discriminate]. exists t. apply lz_eqb_eq in H. auto.
  - intros (t & -> & L & E). split; [exact L|]. apply lz_eqb_eq. symmetry. exact E.
Qed.

Lemma unprotect_some token cid_len pkt r :
  unprotect token cid_len pkt = Some r ->
  r = if 1 + cid_len + 4 + 16 <=? Z.of_nat (length pkt) then Some (true, reset_detect token pkt)
      else if reset_detect token pkt then Some (false, true) else None.
Proof.
  unfold unprotect. destruct pkt as [|b0 rest]; [discriminate|].
  destruct ((b0 / 64) mod 2 =? 0); [discriminate|]. destruct (128 <=? b0); [discriminate|].
  destruct (Z.of_nat (length rest) <? cid_len); [discriminate|].
  cbv zeta. destruct (1 + cid_len + 4 + 16 <=? Z.of_nat (length (b0 :: rest)));
    [|destruct (reset_detect token (b0 :: rest))]; intros H; injection H as <-; reflexivity.
Qed.

Theorem unprotect_reset_flag : forall token cid_len pkt p r,
  unprotect token cid_len pkt = Some (Some (p, r)) -> r = reset_detect token pkt.
Proof.
  intros token cid_len pkt p r H. apply unprotect_some in H.
  destruct (1 + cid_len + 4 + 16 <=? Z.of_nat (length pkt)); [injection H as _ ->; reflexivity|].
  destruct (reset_detect token pkt); [injection H as _ ->; reflexivity|discriminate].
Qed.

Theorem unprotect_dropped_is_not_reset : forall token cid_len pkt,
  unprotect token cid_len pkt = Some None -> reset_detect token pkt = false.
Proof.
  intros token cid_len pkt H. apply unprotect_some in H.
  destruct (1 + cid_len + 4 + 16 <=? Z.of_nat (length pkt)); [discriminate|].
  destruct (reset_detect token pkt); [discriminate|reflexivity].
Qed.

Example pkt_accept_example :
  decrypt 3 true 7 5 false (Some (mkPrev (Some 6) false)) true false 21 true = Some (Decrypted 7 false true) /\
  decrypt 3 true 5 5 false (Some (mkPrev (Some 6) false)) true false 20 true = Some (Decrypted 5 false false) /\
  decrypt 3 true 5 5 false None true false 21 true = Some (Illegal KEY_UPDATE_ERROR) /\
  decrypt 3 true 7 5 false None true false 12 true = Some AuthFailed /\
  reset_detect (Some [1;2;3;4;5;6;7;8;9;10;11;12;13;14;15;16])
               [64;0;0;0;0;1;2;3;4;5;6;7;8;9;10;11;12;13;14;15;16] = true /\
  reset_detect (Some [1;2;3;4;5;6;7;8;9;10;11;12;13;14;15;16])
               [64;0;0;0;1;2;3;4;5;6;7;8;9;10;11;12;13;14;15;16] = false.
Proof. vm_compute. repeat split; reflexivity. Qed.
