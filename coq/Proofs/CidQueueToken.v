(** CidQueue (C04): the reset token reported when the active remote CID changes is the one the
    peer issued for the CID now in use.  In the model a NEW_CONNECTION_ID frame with CID id [id]
    carries token id [id], so the claim reads [tk = active id]. *)
From QV Require Import Lib.Tac Lib.Corr Model.CidQueue Proofs.CidQueueProofs.
Open Scope Z_scope.

Definition tok_ok (o : op) (out : list Z) : Prop :=
  match o, out with
  | Insert _ _ _, [_; a; 1; _; _; tk] => tk = a
  | Next, [_; a; 1; tk; _; _] => tk = a
  | _, _ => True
  end.

Lemma out_spec_tok o out : out_spec o out -> tok_ok o out.
Proof.
  intros [seq rpt id aseq a lo hi _ _|a lo hi _|[] aseq a code]; cbn [tok_ok];
    try reflexivity; try exact I; destruct code as [|[]|]; exact I.
Qed.

(** every reachable state: handshake-time [update_initial_cid]s, then any [insert]/[next] *)
Lemma cidqueue_token_lemma L : L = 5 -> forall id0 pre post s outs,
  Forall upd_op pre -> Forall main_op post ->
  run_ops L (new L id0) (pre ++ post) = Some (s, outs) -> Forall2 tok_ok (pre ++ post) outs.
Proof.
  intros -> id0 pre post s outs Hu Hm Hr.
  destruct (run_upd_then_main pre post (new 5 id0) [] (new_inv 5 eq_refl id0) eq_refl Hu Hm)
    as (s' & outs' & _ & Hr' & _ & _ & Hf).
  rewrite Hr' in Hr. inversion Hr; subst. exact (Forall2_imp _ _ out_spec_tok _ _ Hf).
Qed.
