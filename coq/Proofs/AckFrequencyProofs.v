(** Proofs about Model/AckFrequency.v (C03: [candidate_max_ack_delay] and the ACK_FREQUENCY state
    never panic; defect F4 as a refutation of the pre-fix code). *)
From QV Require Import Lib.Tac Lib.Corr gen.Constants Model.AckFrequency.
Import AckFrequency.
Open Scope Z_scope.

(** What transport-parameter validation imposes on the peer's ack-delay parameters
    (transport_parameters.rs): [max_ack_delay < 2^14] ms and [min_ack_delay <= max_ack_delay * 1000]. *)
Definition validated (max_ack_delay_ms min_ack_delay_us : Z) : Prop :=
  0 <= max_ack_delay_ms < 2 ^ 14 /\ 0 <= min_ack_delay_us <= max_ack_delay_ms * 1000.

(** F4: the pre-fix code panics for a validated parameter set. *)
Lemma candidate_pre_fix_refuted :
  exists max_ms min_us rtt,
    validated max_ms min_us /\ 0 <= rtt /\
    candidate_pre_fix (new (max_ms * 1000)) rtt None (Some min_us) = None /\
    run_pre_fix [[0; max_ms * 1000]; [2]; [1; rtt; -1; min_us]] = [PANIC].
Proof.
  exists 30, 26000, 10000. unfold validated. vm_compute. repeat split; congruence.
Qed.

(** [Ord::clamp] in closed form *)
Lemma clamp_spec x lo hi :
  clamp x lo hi = if hi <? lo then None else Some (Z.max lo (Z.min x hi)).
Proof.
  unfold clamp. destruct (hi <? lo) eqn:E; [reflexivity|]. f_equal.
  destruct (x <? lo) eqn:E1; [lia|]. destruct (hi <? x) eqn:E2; lia.
Qed.

(** Exactly the class: the pre-fix code panics iff [min_ack_delay > max(rtt, 25 ms)]. *)
Lemma candidate_pre_fix_panics_iff s rtt cfg minad :
  candidate_pre_fix s rtt cfg minad = None <->
  Z.max rtt MIN_AUTOMATIC_ACK_DELAY < opt_default minad 0.
Proof.
  unfold candidate_pre_fix. rewrite clamp_spec.
  destruct (Z.max rtt MIN_AUTOMATIC_ACK_DELAY <? opt_default minad 0) eqn:E; split; intro H;
    try discriminate; try reflexivity; lia.
Qed.

(** The repaired code is total, for ALL inputs, and keeps the documented bounds. *)
Lemma candidate_total s rtt cfg minad :
  exists d, candidate s rtt cfg minad = Some d /\
    opt_default minad 0 <= d /\
    d <= Z.max (Z.max rtt MIN_AUTOMATIC_ACK_DELAY) (opt_default minad 0) /\
    (opt_default minad 0 <= opt_default cfg (peer_max_ack_delay s)
       <= Z.max rtt MIN_AUTOMATIC_ACK_DELAY -> d = opt_default cfg (peer_max_ack_delay s)).
Proof.
  unfold candidate. cbv zeta. rewrite clamp_spec.
  destruct (Z.max (Z.max rtt MIN_AUTOMATIC_ACK_DELAY) (opt_default minad 0) <? opt_default minad 0)
    eqn:E; [lia|].
  eexists. split; [reflexivity|lia].
Qed.

(** Outside the defect class the repair changes nothing. *)
Lemma candidate_agrees_pre_fix s rtt cfg minad d :
  candidate_pre_fix s rtt cfg minad = Some d -> candidate s rtt cfg minad = Some d.
Proof.
  unfold candidate_pre_fix, candidate. cbv zeta. rewrite !clamp_spec.
  destruct (Z.max rtt MIN_AUTOMATIC_ACK_DELAY <? opt_default minad 0) eqn:E1; [discriminate|].
  replace (Z.max (Z.max rtt MIN_AUTOMATIC_ACK_DELAY) (opt_default minad 0))
    with (Z.max rtt MIN_AUTOMATIC_ACK_DELAY) by lia.
  rewrite E1. auto.
Qed.

Lemma step_total s o :
  0 <= next_seq s <= VARINT_MAX ->
  exists s' out, step candidate s o = Some (s', out) /\ 0 <= next_seq s' <= next_seq s + 1.
Proof.
  intros Hn. destruct o as [d|rtt cfg minad| |pn req|pn|seq thr req reord|rtt cfg minad];
    cbn [step].
  - eexists _, _. split; [reflexivity|]. cbn [new next_seq]. lia.
  - destruct (candidate_total s rtt cfg minad) as (d & Hd & _). rewrite Hd.
    eexists _, _. split; [reflexivity|]. lia.
  - destruct (VARINT_MAX <? next_seq s) eqn:E; [lia|].
    eexists _, _. split; [reflexivity|]. cbn [next_seq]. lia.
  - eexists _, _. split; [reflexivity|]. cbn [next_seq]. lia.
  - eexists _, _. split; [reflexivity|].
    destruct (in_flight s) as [[n r]|]; [destruct (n =? pn)|]; cbn [next_seq]; lia.
  - destruct (match last_frame s with Some h => seq <=? h | None => false end).
    + eexists _, _. split; [reflexivity|]. lia.
    + destruct (req <? TIMER_GRANULARITY_US); eexists _, _;
        (split; [reflexivity|]); cbn [next_seq]; lia.
  - destruct (next_seq s =? 0).
    + eexists _, _. split; [reflexivity|]. lia.
    + destruct (candidate_total s rtt cfg minad) as (d & Hd & _). rewrite Hd.
      eexists _, _. split; [reflexivity|]. lia.
Qed.

(** No op sequence makes the (repaired) state machine panic, as long as fewer than 2^62
    ACK_FREQUENCY sequence numbers have been drawn. *)
Lemma run_ops_total : forall os s,
  0 <= next_seq s -> next_seq s + Z.of_nat (length os) <= VARINT_MAX + 1 ->
  exists outs, run_ops candidate s os = Some outs /\ length outs = length os.
Proof.
  induction os as [|o os IH]; intros s H0 Hlen.
  - exists []. split; reflexivity.
  - cbn [length] in Hlen. cbn [run_ops].
    destruct (step_total s o) as (s' & out & Hs & Hn); [lia|]. rewrite Hs.
    destruct (IH s') as (outs & Hr & Hl); [lia|lia|].
    rewrite Hr. eexists. split; [reflexivity|]. cbn [length]. lia.
Qed.

Lemma ack_frequency_never_panics_lemma : forall d os,
  Z.of_nat (length os) <= VARINT_MAX + 1 ->
  exists outs, run_ops candidate (new d) os = Some outs /\ length outs = length os.
Proof.
  intros d os H. apply run_ops_total; cbn [new next_seq]; lia.
Qed.

(** A requested max_ack_delay below the timer granularity is rejected with PROTOCOL_VIOLATION and
    never becomes the local [max_ack_delay]. *)
Lemma received_small_rejected s seq thr req reord s' out :
  step candidate s (Received seq thr req reord) = Some (s', out) ->
  req < TIMER_GRANULARITY_US ->
  max_ack_delay s' = max_ack_delay s /\
  (hd 0 out = 1 -> nth 1 out 0 = PROTOCOL_VIOLATION).
Proof.
  cbn [step]. intros H Hr.
  destruct (match last_frame s with Some h => seq <=? h | None => false end).
  - inversion H; subst. split; [reflexivity|]. cbn. discriminate.
  - destruct (req <? TIMER_GRANULARITY_US) eqn:E; [|lia].
    inversion H; subst. split; reflexivity.
Qed.
