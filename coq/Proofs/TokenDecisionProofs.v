(** Proofs about Model/TokenDecision.v.  Cryptography is a Section oracle: [open k b] is
    [Token::decode] under the server's key; the AEAD assumptions stay visible as premises. *)
From QV Require Import Lib.Tac Lib.Corr Model.BloomLog Model.TokenDecision Proofs.BloomLogProofs.
Open Scope Z_scope.

Definition is_validated (o : outcome) : bool :=
  match o with Incoming _ _ v => v | InvalidRetryToken => false end.

Lemma decide_step c log now raddr rport dcid e dec :
  (fst (decide c log now raddr rport dcid e dec) = log /\
   (is_validated (snd (decide c log now raddr rport dcid e dec)) = true ->
    exists t a p od i, dec = Some t /\ pl t = Retry a p od i)) \/
  (exists t ip iss, dec = Some t /\ pl t = Validation ip iss /\
     (fst (decide c log now raddr rport dcid e dec),
      is_validated (snd (decide c log now raddr rport dcid e dec)))
     = check (log_fmb c) log (nonce t) iss (val_lt c) false).
Proof.
  unfold decide, unvalidated. destruct e; [left; split; [reflexivity|discriminate]|].
  destruct dec as [t|]; [|left; split; [reflexivity|discriminate]].
  destruct (pl t) as [addr port odcid iss|ip iss] eqn:P.
  - left. destruct (negb ((addr =? raddr) && (port =? rport)));
      [|destruct (iss + retry_lt c <? now)]; (split; [reflexivity|]); try discriminate.
    intros _. exists t, addr, port, odcid, iss. split; [reflexivity|exact P].
  - destruct (negb (ip =? raddr)); [left; split; [reflexivity|discriminate]|].
    destruct (iss + val_lt c <? now); [left; split; [reflexivity|discriminate]|].
    right. exists t, ip, iss. split; [reflexivity|]. split; [exact P|].
    destruct (check (log_fmb c) log (nonce t) iss (val_lt c) false) as [l2 []]; reflexivity.
Qed.

Section AEAD.
  Variables (key bytes : Type).
  Variable seal : key -> token -> bytes.            (* Token::encode under a key *)
  Variable open : key -> bytes -> option token.     (* Token::decode under a key *)
  Variable is_empty : bytes -> bool.
  Variable k : key.                                  (* this server's token key *)
  Variable issued_by_server : token -> Prop.         (* the tokens this server sealed under [k] *)

  (** AEAD unforgeability (INT-CTXT): whatever decodes under [k] is the unmodified encoding of a
      token this server sealed; in particular nothing sealed under another key decodes. *)
  Hypothesis unforgeable : forall b t, open k b = Some t -> issued_by_server t /\ b = seal k t.
  (* needed only by [genuine_retry_accepted] and [foreign_key_token_is_absent] *)
  Hypothesis open_seal : forall t, open k (seal k t) = Some t.
  Hypothesis other_key : forall k' t, k' <> k -> open k (seal k' t) = None.

  (* Before a [lia] the hypotheses not named by [Proof using] are cleared: it would pull them
     into the proof term. *)

  Definition from_header (c : config) (log : BloomLog.t) (now raddr rport : Z) (dcid : list Z)
             (b : bytes) : BloomLog.t * outcome :=
    decide c log now raddr rport dcid (is_empty b) (open k b).

  Theorem validated_implies_genuine : forall c log now raddr rport dcid b log' rsc od,
    from_header c log now raddr rport dcid b = (log', Incoming rsc od true) ->
    exists t, issued_by_server t /\ b = seal k t /\ is_empty b = false /\
      match pl t with
      | Retry addr port odcid iss =>
          addr = raddr /\ port = rport /\ now <= iss + retry_lt c /\
          rsc = Some dcid /\ od = odcid /\ log' = log
      | Validation ip iss =>
          ip = raddr /\ now <= iss + val_lt c /\ rsc = None /\ od = dcid /\
          BloomLog.check (log_fmb c) log (nonce t) iss (val_lt c) false = (log', true)
      end.
  Proof using unforgeable. clear open_seal other_key.
    intros c log now raddr rport dcid b log' rsc od. unfold from_header, decide, unvalidated.
    destruct (is_empty b) eqn:E; [discriminate|].
    destruct (open k b) as [t|] eqn:O; [|discriminate].
    destruct (unforgeable _ _ O) as [Hi Hb].
    intros H. exists t. split; [exact Hi|]. split; [exact Hb|]. split; [reflexivity|].
    destruct (pl t) as [addr port odcid iss|ip iss].
    - destruct ((addr =? raddr) && (port =? rport)) eqn:A; cbn [negb] in H; [|discriminate].
      destruct (iss + retry_lt c <? now) eqn:B; [discriminate|].
      injection H as <- <- <-. apply andb_true_iff in A. repeat split; try reflexivity; lia.
    - destruct (ip =? raddr) eqn:A; cbn [negb] in H; [|discriminate].
      destruct (iss + val_lt c <? now) eqn:B; [discriminate|].
      destruct (check (log_fmb c) log (nonce t) iss (val_lt c) false) as [l2 ok] eqn:C.
      destruct ok; [|discriminate]. injection H as <- <- <-.
      repeat split; try reflexivity; lia.
  Qed.

  (** Any altered or foreign token is treated exactly like an absent token. *)
  Theorem altered_token_is_absent : forall c log now raddr rport dcid b,
    open k b = None ->
    from_header c log now raddr rport dcid b = (log, unvalidated dcid).
  Proof using.
    intros. unfold from_header, decide. rewrite H. destruct (is_empty b); reflexivity.
  Qed.

  Corollary not_issued_is_absent : forall c log now raddr rport dcid b,
    (forall t, issued_by_server t -> b <> seal k t) ->
    from_header c log now raddr rport dcid b = (log, unvalidated dcid).
  Proof using unforgeable.
    intros c log now raddr rport dcid b H. apply altered_token_is_absent.
    destruct (open k b) as [t|] eqn:O; [|reflexivity].
    destruct (unforgeable _ _ O) as [Hi Hb]. exfalso. exact (H t Hi Hb).
  Qed.

  Corollary foreign_key_token_is_absent : forall c log now raddr rport dcid k' t,
    k' <> k ->
    from_header c log now raddr rport dcid (seal k' t) = (log, unvalidated dcid).
  Proof using other_key. intros. apply altered_token_is_absent. apply other_key. assumption. Qed.

  (** A Retry token of this server that is stale or presented from another address or port
      ends the attempt (the caller answers INVALID_TOKEN). *)
  Theorem stale_or_misplaced_retry_is_invalid : forall c log now raddr rport dcid b t addr port od iss,
    is_empty b = false -> open k b = Some t -> pl t = Retry addr port od iss ->
    (addr <> raddr \/ port <> rport \/ iss + retry_lt c < now) ->
    from_header c log now raddr rport dcid b = (log, InvalidRetryToken).
  Proof using. clear unforgeable open_seal other_key. clear seal issued_by_server.
    intros c log now raddr rport dcid b t addr port od iss E O P H.
    unfold from_header, decide. rewrite E, O, P.
    destruct ((addr =? raddr) && (port =? rport)) eqn:A; cbn [negb]; [|reflexivity].
    apply andb_true_iff in A. destruct (iss + retry_lt c <? now) eqn:B; [reflexivity|lia].
  Qed.

  (** Completeness (non-vacuity of the acceptance branch): a genuine Retry token presented from
      its address within its lifetime is accepted and carries the original destination CID. *)
  Theorem genuine_retry_accepted : forall c log now raddr rport dcid t od iss,
    is_empty (seal k t) = false -> pl t = Retry raddr rport od iss -> now <= iss + retry_lt c ->
    from_header c log now raddr rport dcid (seal k t) = (log, Incoming (Some dcid) od true).
  Proof using open_seal. clear unforgeable other_key. clear issued_by_server.
    intros c log now raddr rport dcid t od iss E P H.
    unfold from_header, decide. rewrite E, open_seal, P, !Z.eqb_refl. cbn [andb negb].
    destruct (iss + retry_lt c <? now) eqn:B; [lia|reflexivity].
  Qed.

  (** A validation token is moved to another IP or is stale: treated as absent, log untouched. *)
  Theorem stale_or_misplaced_validation_is_absent : forall c log now raddr rport dcid b t ip iss,
    open k b = Some t -> pl t = Validation ip iss ->
    (ip <> raddr \/ iss + val_lt c < now) ->
    from_header c log now raddr rport dcid b = (log, unvalidated dcid).
  Proof using. clear unforgeable open_seal other_key. clear seal issued_by_server.
    intros c log now raddr rport dcid b t ip iss O P H.
    unfold from_header, decide. rewrite O, P. destruct (is_empty b); [reflexivity|].
    destruct (ip =? raddr) eqn:A; cbn [negb]; [|reflexivity].
    destruct (iss + val_lt c <? now) eqn:B; [reflexivity|lia].
  Qed.

  Definition presentation := (Z * Z * Z * list Z * bytes)%type.   (* now, remote ip, port, dcid, token bytes *)

  Fixpoint serve (c : config) (log : BloomLog.t) (h : list presentation) : list outcome :=
    match h with
    | [] => []
    | (now, raddr, rport, dcid, b) :: h' =>
        let '(log', o) := from_header c log now raddr rport dcid b in o :: serve c log' h'
    end.

  (** [A] is the ghost list of the (fingerprint, expiry) pairs the log has accepted. *)
  Lemma from_header_step c log now raddr rport dcid b log' o A :
    0 <= val_lt c -> BloomLogProofs.Inv (val_lt c) log A ->
    from_header c log now raddr rport dcid b = (log', o) ->
    exists A', BloomLogProofs.Inv (val_lt c) log' A' /\ (forall x, In x A -> In x A') /\
      forall t ip iss, open k b = Some t -> pl t = Validation ip iss ->
        (is_validated o = true -> In (nonce t mod 2 ^ 64, iss + val_lt c) A') /\
        (In (nonce t mod 2 ^ 64, iss + val_lt c) A -> is_validated o = false).
  Proof using.
    intros HL HI H. unfold from_header in H.
    pose proof (decide_step c log now raddr rport dcid (is_empty b) (open k b)) as Hstep.
    rewrite H in Hstep. cbn [fst snd] in Hstep.
    destruct Hstep as [[-> Hv]|(t & ip & iss & Ht & Pt & Hc)].
    - exists A. split; [exact HI|]. split; [auto|]. intros t ip iss Ht Pt.
      assert (Hnv : is_validated o = false).
      { destruct (is_validated o); [|reflexivity].
        destruct (Hv eq_refl) as (t1 & a & p & od & i & Ht1 & Pt1). congruence. }
      split; [rewrite Hnv; discriminate|intros _; exact Hnv].
    - symmetry in Hc.
      exists (if is_validated o then (nonce t mod 2 ^ 64, iss + val_lt c) :: A else A).
      split; [exact (check_preserves_inv _ _ _ _ _ _ _ _ _ HL HI Hc)|].
      split; [intros x Hx; destruct (is_validated o); [right|]; exact Hx|].
      intros t1 ip1 iss1 Ht1 Pt1. rewrite Ht1 in Ht. injection Ht as <-.
      rewrite Pt1 in Pt. injection Pt as <- <-. split.
      + intros ->. left. reflexivity.
      + intros HA. pose proof (inv_rejects_replay (log_fmb c) _ _ _ _ _ false HL HI HA) as R.
        rewrite Hc in R. exact R.
  Qed.

  Lemma serve_rejects_known c : 0 <= val_lt c -> forall h log A,
    BloomLogProofs.Inv (val_lt c) log A ->
    forall j q t' ip' iss,
      nth_error h j = Some q -> open k (snd q) = Some t' -> pl t' = Validation ip' iss ->
      In (nonce t' mod 2 ^ 64, iss + val_lt c) A \/
      (exists i p t ip oi, (i < j)%nat /\ nth_error h i = Some p /\
         open k (snd p) = Some t /\ pl t = Validation ip iss /\
         nonce t mod 2 ^ 64 = nonce t' mod 2 ^ 64 /\
         nth_error (serve c log h) i = Some oi /\ is_validated oi = true) ->
      forall oj, nth_error (serve c log h) j = Some oj -> is_validated oj = false.
  Proof using. clear unforgeable open_seal other_key. clear seal issued_by_server.
    intros HL. induction h as [|[[[[now0 ra0] rp0] dc0] b0] h IH];
      intros log A HI j q t' ip' iss Hj Oj Pj HA oj Hoj.
    - destruct j; discriminate.
    - cbn [serve] in HA, Hoj.
      destruct (from_header c log now0 ra0 rp0 dc0 b0) as [log' o0] eqn:F.
      destruct (from_header_step _ _ _ _ _ _ _ _ _ _ HL HI F) as (A' & HI' & Hsub & Hkey).
      destruct j as [|j]; cbn [nth_error] in Hj, Hoj.
      + injection Hj as <-. injection Hoj as <-. cbn [snd] in Oj.
        destruct HA as [HA|(i & _ & _ & _ & _ & Hi & _)]; [|lia].
        exact (proj2 (Hkey _ _ _ Oj Pj) HA).
      + (* a later one: the pair is known to the log after this step *)
        apply (IH log' A' HI' j q t' ip' iss Hj Oj Pj); [|exact Hoj].
        destruct HA as [HA|(i & p & t & ip & oi & Hij & Hi & Oi & Pi & Hn & Hoi & V)];
          [left; apply Hsub, HA|].
        destruct i as [|i]; cbn [nth_error] in Hi, Hoi.
        * left. injection Hi as <-. injection Hoi as <-. cbn [snd] in Oi.
          rewrite <- Hn. exact (proj1 (Hkey _ _ _ Oi Pi) V).
        * right. exists i, p, t, ip, oi. repeat split; try assumption. lia.
  Qed.

  (** Over any history of Initial packets (any clock readings, addresses, interleaved with any
      other tokens): two presentations whose bytes decode to NEW_TOKEN tokens with the same nonce
      (64-bit fingerprint) and issue time — in particular two presentations of the same token —
      are never both validated. *)
  Theorem validation_token_single_use : forall c h,
    0 <= val_lt c ->
    forall i j p q t t' ip ip' iss,
      (i < j)%nat -> nth_error h i = Some p -> nth_error h j = Some q ->
      open k (snd p) = Some t -> pl t = Validation ip iss ->
      open k (snd q) = Some t' -> pl t' = Validation ip' iss ->
      nonce t mod 2 ^ 64 = nonce t' mod 2 ^ 64 ->
      forall oi oj, nth_error (serve c BloomLog.init h) i = Some oi ->
                    nth_error (serve c BloomLog.init h) j = Some oj ->
                    is_validated oi = true -> is_validated oj = false.
  Proof using.
    intros c h HL i j p q t t' ip ip' iss Hij Hi Hj Oi Pi Oj Pj Hn oi oj Hoi Hoj V.
    apply (serve_rejects_known c HL h BloomLog.init [] (inv_init _) j q t' ip' iss Hj Oj Pj);
      [|exact Hoj].
    right. exists i, p, t, ip, oi. repeat split; assumption.
  Qed.
End AEAD.

(** Consistency of the AEAD assumptions: the ideal scheme (bytes = key and token in the clear,
    [open] compares keys) satisfies them, with every token counted as issued. *)
Definition ideal_seal (k : Z) (t : token) : Z * token := (k, t).
Definition ideal_open (k : Z) (b : Z * token) : option token := if fst b =? k then Some (snd b) else None.

Lemma ideal_unforgeable k b t : ideal_open k b = Some t -> True /\ b = ideal_seal k t.
Proof.
  unfold ideal_open, ideal_seal. destruct b as [k' t']. cbn [fst snd].
  destruct (k' =? k) eqn:E; [|discriminate]. intros H; injection H as <-.
  apply Z.eqb_eq in E. subst. split; [exact I|reflexivity].
Qed.

Lemma ideal_open_seal k t : ideal_open k (ideal_seal k t) = Some t.
Proof. unfold ideal_open, ideal_seal. cbn [fst snd]. rewrite Z.eqb_refl. reflexivity. Qed.

Lemma ideal_other_key k k' t : k' <> k -> ideal_open k (ideal_seal k' t) = None.
Proof.
  intros H. unfold ideal_open, ideal_seal. cbn [fst snd]. destruct (k' =? k) eqn:E; [|reflexivity].
  apply Z.eqb_eq in E. contradiction.
Qed.

(** Non-vacuity: a Retry token issued to 10.0.0.1:4433 at second 5 with a 15 s lifetime is
    accepted at the last admissible microsecond, fails one microsecond later and from another
    port; a NEW_TOKEN token validates once and is absent the second time. *)
Example token_decision_example :
  let c := mkCfg 15000000 60000000 (2 ^ 19) in
  let r := mkTok 77 (Retry 1 4433 [9; 9] 5000000) in
  let v := mkTok 78 (Validation 1 5000000) in
  snd (decide c BloomLog.init 20000000 1 4433 [1; 2] false (Some r)) = Incoming (Some [1; 2]) [9; 9] true /\
  snd (decide c BloomLog.init 20000001 1 4433 [1; 2] false (Some r)) = InvalidRetryToken /\
  snd (decide c BloomLog.init 20000000 1 4434 [1; 2] false (Some r)) = InvalidRetryToken /\
  snd (decide c BloomLog.init 20000000 1 4433 [1; 2] false None) = Incoming None [1; 2] false /\
  (let '(log1, o1) := decide c BloomLog.init 6000000 1 999 [1; 2] false (Some v) in
   o1 = Incoming None [1; 2] true /\
   snd (decide c log1 6000001 1 999 [1; 2] false (Some v)) = Incoming None [1; 2] false).
Proof. vm_compute. repeat split; reflexivity. Qed.
