(** black_hole_needs_evidence: a declared black hole has more than the threshold of bursts on
    record, each of packets larger than [min_mtu]. *)
From QV Require Import Lib.Tac Lib.Corr gen.Constants Model.Mtud Proofs.MtudProofs.
Open Scope Z_scope.

Section Evidence.
Variable MPR BHT : Z.
Notation step := (Mtud.step MPR BHT true).

Definition BI (b : Bhd) : Prop := Forall (fun x => bmin_mtu b < x) (bursts b).

Lemma replace_first_forall (P : Z -> Prop) l old new :
  Forall P l -> P new -> Forall P (replace_first l old new).
Proof.
  intros H Hn. induction H as [|x l Hx Hl IH]; cbn [replace_first]; [constructor|].
  destruct (x =? old); constructor; auto.
Qed.

Lemma finish_BI b : BI b -> BI (finish_loss_burst BHT b).
Proof.
  unfold BI, finish_loss_burst. intros H. destruct (cur_burst b) as [[sm latest]|]; [|exact H].
  destruct ((sm <=? bmin_mtu b) || (latest <? largest_post_loss b) && (sm <=? acked_mtu b)) eqn:E;
    cbn [bmin_mtu bursts]; [exact H|].
  assert (Hsm : bmin_mtu b < sm) by lia.
  destruct (Z.of_nat (length (bursts b)) <=? BHT).
  - apply Forall_app. split; [exact H|]. constructor; [exact Hsm|constructor].
  - destruct (bursts b) as [|x r] eqn:Eb; [exact H|].
    destruct (list_min r x <? sm); [|exact H]. apply replace_first_forall; assumption.
Qed.

Lemma lost_BI b pn len b' : BI b -> bhd_on_non_probe_lost BHT b pn len = Some b' -> BI b'.
Proof.
  unfold bhd_on_non_probe_lost. intros H. destruct (cur_burst b) as [[sm latest]|] eqn:Ec.
  - destruct (pn <? latest); [discriminate|]. destruct (pn - latest =? 1); intros E; inversion E; subst; clear E.
    + exact H.
    + pose proof (finish_BI b H) as H1. unfold BI in *. cbn [bmin_mtu bursts]. exact H1.
  - intros E; inversion E; subst. exact H.
Qed.

Lemma detect_BI b : BI b -> BI (fst (bhd_black_hole_detected BHT b)).
Proof.
  intros H. unfold bhd_black_hole_detected. pose proof (finish_BI b H) as H1.
  destruct (Z.of_nat (length (bursts (finish_loss_burst BHT b))) <=? BHT); cbn [fst]; [exact H1|].
  unfold BI. cbn [bursts]. constructor.
Qed.

Lemma acked_BI b pn len : BI b -> BI (bhd_on_non_probe_acked b pn len).
Proof.
  intros H. unfold bhd_on_non_probe_acked. destruct (len <=? acked_mtu b); [exact H|].
  unfold BI in *. cbn [bmin_mtu bursts]. eapply incl_Forall; [apply incl_filter | exact H].
Qed.

Lemma step_BI m op m' r : BI (bhd m) -> step m op = Some (m', r) -> BI (bhd m').
Proof.
  intros HB H. apply step_bhd in H.
  destruct op.
  - rewrite H. constructor.
  - rewrite H. constructor.
  - rewrite H. exact HB.
  - rewrite H. exact HB.
  - destruct H as [->|[->| ->]]; [exact HB | constructor | apply acked_BI, HB].
  - rewrite H. exact HB.
  - eapply lost_BI; eauto.
  - rewrite H. apply detect_BI, HB.
Qed.

Lemma reach_BI m plow : reach MPR BHT m plow -> BI (bhd m).
Proof.
  induction 1 as [|m plow op m' r Hr IH Hok Hs]; [constructor|]. eapply step_BI; eauto.
Qed.

Lemma black_hole_needs_evidence m plow now m' :
  reach MPR BHT m plow -> step m (OBlackHole now) = Some (m', 1) ->
  let b := finish_loss_burst BHT (bhd m) in
  BHT < Z.of_nat (length (bursts b)) /\ Forall (fun x => bmin_mtu b < x) (bursts b).
Proof.
  intros Hr Hs. split.
  - eapply black_hole_threshold; eauto.
  - apply finish_BI. eapply reach_BI; eauto.
Qed.
End Evidence.
