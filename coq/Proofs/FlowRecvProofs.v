(** Facts about Model/FlowRecv.v shared by C06 and C11: rejected frames, what [stream_freed]
    can change, and how an invariant of the ops becomes one of all op sequences. *)
From QV Require Import Lib.Tac Lib.Corr Model.FlowRecv.
Open Scope Z_scope.

(** Reduces projections of setter terms. *)
Ltac prj :=
  cbn [side recvm sendm free_recv nxt maxl max_remote sent_max_remote alloc max_conc
  next_remote opened next_rep send_streams events pendq local_max rwin sent_max_data data_recvd swin
  debt p_max_data p_msid p_msd p_stop p_reset seen slog panic g_closed g_credits g_expand g_fin g_reset
  set_side set_recvm set_sendm set_free_recv set_nxt set_maxl set_max_remote set_sent_max_remote
  set_alloc set_max_conc set_next_remote set_opened set_next_rep set_send_streams set_events
  set_pendq set_local_max set_rwin set_sent_max_data set_data_recvd set_swin set_debt
  set_p_max_data set_p_msid set_p_msd set_p_stop set_p_reset set_seen set_slog set_panic
  set_g_closed set_g_credits set_g_expand set_g_fin set_g_reset set_panic_if].

(** The state after a rejected frame: the slot is replaced by its own view. *)
Definition quiesce (id : Z) (s : st) : st :=
  match alookup id (recvm s) with
  | Some slot => set_recvm (aset id (SOpen (rview s slot)) (recvm s)) s
  | None => s
  end.

Lemma limit_rejected id s :
  sid_init id <> side s -> pget (sid_dir id) (max_remote s) <= sid_index id ->
  validate_receive_id id s = Some STREAM_LIMIT_ERROR.
Proof.
  intros Hi Hm. unfold validate_receive_id.
  destruct (sid_init id =? side s) eqn:E; [apply Z.eqb_eq in E; contradiction|].
  destruct (pget (sid_dir id) (max_remote s) <=? sid_index id) eqn:E2; [reflexivity|lia].
Qed.

Lemma ingest_verdict r off len fin received max_data :
  let e := off + len in
  (2 ^ 62 <= e -> ingest true r off len fin received max_data = Err FLOW_CONTROL_ERROR) /\
  (e < 2 ^ 62 -> forall f, final_offset r = Some f -> (f < e \/ (fin = true /\ e <> f)) ->
     ingest true r off len fin received max_data = Err FINAL_SIZE_ERROR) /\
  (e < 2 ^ 62 -> final_offset r = None -> fin = true -> e < r_end r ->
     ingest true r off len fin received max_data = Err FINAL_SIZE_ERROR) /\
  (e < 2 ^ 62 ->
     (forall f, final_offset r = Some f -> e <= f /\ (fin = true -> e = f)) ->
     (final_offset r = None -> fin = true -> r_end r <= e) ->
     (r_sent_msd r < e \/ max_data < received + Z.max 0 (e - r_end r)) ->
     ingest true r off len fin received max_data = Err FLOW_CONTROL_ERROR).
Proof.
  intro e. subst e. unfold ingest, credit_consumed_by. cbv zeta. cbn [andb].
  (* each guard of [ingest] is decided by the hypotheses of its row *)
  split; [intro H; replace (2 ^ 62 <=? off + len) with true by lia; reflexivity|].
  repeat split; intro H; replace (2 ^ 62 <=? off + len) with false by lia.
  - intros f -> Hv.
    replace ((f <? off + len) || (fin && negb (off + len =? f))) with true by (destruct fin; lia).
    reflexivity.
  - intros -> -> Hlt. replace (true && (off + len <? r_end r)) with true by lia. reflexivity.
  - intros Hk Hu Hfc.
    replace ((r_sent_msd r <? off + len) || (max_data <? received + Z.max 0 (off + len - r_end r)))
      with true by lia.
    destruct (final_offset r) as [f|].
    + destruct (Hk f eq_refl).
      replace ((f <? off + len) || (fin && negb (off + len =? f))) with false by (destruct fin; lia).
      reflexivity.
    + specialize (Hu eq_refl). replace (fin && (off + len <? r_end r)) with false by (destruct fin; lia).
      reflexivity.
Qed.

Lemma received_Err id off len fin s s' c :
  received true id off len fin s = (s', Err c) <->
  (validate_receive_id id s = Some c /\ s' = s) \/
  (validate_receive_id id s = None /\ s' = quiesce id s /\
   exists slot, alookup id (recvm s) = Some slot /\ is_receiving (rview s slot) = true /\
     ingest true (rview s slot) off len fin (data_recvd s) (local_max s) = Err c).
Proof.
  unfold received, quiesce. split.
  - intro H. destruct (validate_receive_id id s) as [c'|] eqn:V.
    + inversion H; subst. left. split; reflexivity.
    + right. split; [reflexivity|].
      destruct (alookup id (recvm s)) as [slot|] eqn:L; [|discriminate].
      destruct (negb (is_receiving (rview s slot))) eqn:R; [discriminate|].
      apply negb_false_iff in R.
      destruct (ingest true (rview s slot) off len fin (data_recvd s) (local_max s))
        as [c2|[[r' nb] closed]] eqn:I.
      * inversion H; subst. split; [reflexivity|]. exists slot. repeat split; assumption.
      * exfalso. destruct (negb (r_stopped r')); [discriminate|].
        destruct (add_read_credits nb _) as [s4 t]. discriminate.
  - intros [[V ->]|(V & -> & slot & L & R & G)]; rewrite V; [reflexivity|].
    rewrite L, R, G. reflexivity.
Qed.

Lemma reset_verdict r code final received max_data :
  (forall f, final_offset r = Some f -> f <> final ->
     recv_reset r code final received max_data = Err FINAL_SIZE_ERROR) /\
  (final_offset r = None -> final < r_end r ->
     recv_reset r code final received max_data = Err FINAL_SIZE_ERROR) /\
  ((forall f, final_offset r = Some f -> f = final) -> (final_offset r = None -> r_end r <= final) ->
   (r_sent_msd r < final \/ max_data < received + Z.max 0 (final - r_end r)) ->
     recv_reset r code final received max_data = Err FLOW_CONTROL_ERROR).
Proof.
  unfold recv_reset, credit_consumed_by. repeat split.
  - intros f -> Hne. replace (negb (f =? final)) with true by lia. reflexivity.
  - intros -> Hlt. replace (final <? r_end r) with true by lia. reflexivity.
  - intros Hk Hu Hfc.
    replace ((r_sent_msd r <? final) || (max_data <? received + Z.max 0 (final - r_end r)))
      with true by lia.
    destruct (final_offset r) as [f|].
    + rewrite (Hk f eq_refl), Z.eqb_refl. reflexivity.
    + replace (final <? r_end r) with false by (specialize (Hu eq_refl); lia). reflexivity.
Qed.

Lemma received_reset_Err id code final s s' c :
  received_reset true id code final s = (s', Err c) <->
  (validate_receive_id id s = Some c /\ s' = s) \/
  (validate_receive_id id s = None /\ s' = quiesce id s /\
   exists slot, alookup id (recvm s) = Some slot /\
     recv_reset (rview s slot) code final (data_recvd s) (local_max s) = Err c).
Proof.
  unfold received_reset, quiesce. split.
  - intro H. destruct (validate_receive_id id s) as [c'|] eqn:V.
    + inversion H; subst. left. split; reflexivity.
    + right. split; [reflexivity|].
      destruct (alookup id (recvm s)) as [slot|] eqn:L; [|discriminate].
      destruct (recv_reset (rview s slot) code final (data_recvd s) (local_max s))
        as [c2|[r' [|]]] eqn:I; [| |discriminate].
      * inversion H; subst. split; [reflexivity|]. exists slot. split; [reflexivity|assumption].
      * exfalso.
        destruct (negb ((if true && r_stopped r' then r_end r' else bytes_read r') =? final));
          [|discriminate].
        destruct (add_read_credits _ _) as [s6 t]. discriminate.
  - intros [[V ->]|(V & -> & slot & L & G)]; rewrite V; [reflexivity|]. rewrite L, G. reflexivity.
Qed.

Lemma look_aset_same {A} k (v : A) m : alookup k (aset k v m) = Some v.
Proof.
  induction m as [|[k' v'] r IH]; cbn [aset alookup]; [rewrite Z.eqb_refl; reflexivity|].
  destruct (k =? k') eqn:E; cbn [alookup]; rewrite ?Z.eqb_refl, ?E; auto.
Qed.
Lemma look_aset_other {A} k k' (v : A) m : k' <> k -> alookup k' (aset k v m) = alookup k' m.
Proof.
  intro N. induction m as [|[k2 v2] r IH]; cbn [aset alookup].
  - destruct (k' =? k) eqn:E; [lia|reflexivity].
  - destruct (k =? k2) eqn:E; cbn [alookup].
    + assert (k = k2) by lia. subst. destruct (k' =? k2) eqn:E2; [lia|reflexivity].
    + destruct (k' =? k2); [reflexivity|exact IH].
Qed.
Lemma look_remove_same {A} k (m : list (Z * A)) : alookup k (aremove_all k m) = None.
Proof.
  induction m as [|[k2 v2] r IH]; cbn [aremove_all alookup]; [reflexivity|].
  destruct (k =? k2) eqn:E; [exact IH|]. cbn [alookup]. rewrite E. exact IH.
Qed.
Lemma look_remove_other {A} k k' (m : list (Z * A)) :
  k' <> k -> alookup k' (aremove_all k m) = alookup k' m.
Proof.
  intro N. induction m as [|[k2 v2] r IH]; cbn [aremove_all alookup]; [reflexivity|].
  destruct (k =? k2) eqn:E.
  - assert (k = k2) by lia. subst. destruct (k' =? k2) eqn:E2; [lia|exact IH].
  - cbn [alookup]. destruct (k' =? k2); [reflexivity|exact IH].
Qed.
Lemma amem_look {A} k (m : list (Z * A)) : amem k m = false -> alookup k m = None.
Proof. unfold amem. destruct (alookup k m); [discriminate|reflexivity]. Qed.

Lemma on_stream_frame_only {A} (f : st -> A) :
  (forall v s, f (set_events v s) = f s) -> (forall v s, f (set_opened v s) = f s) ->
  (forall v s, f (set_next_remote v s) = f s) ->
  forall n id s, f (on_stream_frame n id s) = f s.
Proof.
  intros He Ho Hn n id s. unfold on_stream_frame.
  destruct (sid_init id =? side s); [|destruct (pget (sid_dir id) (next_remote s) <=? sid_index id)];
    try destruct n; rewrite ?He, ?Ho, ?Hn; reflexivity.
Qed.

Lemma queue_only {A} (f : st -> A) :
  (forall v s, f (set_p_msid v s) = f s) -> (forall s, f (set_panic true s) = f s) ->
  forall s, f (fst (queue_max_stream_id s)) = f s.
Proof.
  intros Hm Hp.
  assert (D : forall d x, f (fst (queue_dir d x)) = f x).
  { intros d x. unfold queue_dir.
    destruct (pget d (max_remote x) - pget d (sent_max_remote x) <? 0);
      destruct (pget d (max_conc x) / 8 <? _); cbn [fst set_panic_if]; rewrite ?Hm, ?Hp; reflexivity. }
  intro s. unfold queue_max_stream_id.
  pose proof (D 0 s) as H0. destruct (queue_dir 0 s) as [s1 q0].
  pose proof (D 1 s1) as H1. destruct (queue_dir 1 s1) as [s2 q1].
  exact (eq_trans H1 H0).
Qed.

Lemma emit_msd_pres (P : st -> Prop) :
  (forall s, P s -> P (set_panic true s)) ->
  (forall id r m s, P s -> alookup id (recvm s) = Some (SOpen r) ->
     P (set_recvm (aset id (SOpen (mkRecv (r_state r) (r_asm r) (Z.max m (r_sent_msd r)) (r_end r)
                                          (r_stopped r))) (recvm s)) s)) ->
  forall ids s, P s -> P (fst (emit_msd ids s)).
Proof.
  intros Hp Hu ids. induction ids as [|id rest IH]; intros s I; cbn [emit_msd]; [exact I|].
  destruct (alookup id (recvm s)) as [[| |r]|] eqn:L; try (apply IH; exact I).
  destruct (can_send_fc r); [|apply IH; exact I].
  destruct (max_stream_data r (swin s)) as [[m tr]|]; [|apply IH, Hp, I].
  match goal with |- context [emit_msd rest ?x] =>
    assert (Ix : P x); [|pose proof (IH x Ix) as H; destruct (emit_msd rest x) as [s' fs]; exact H] end.
  destruct (VARINT_MAX <? m); cbn [set_panic_if]; [|exact (Hu id r m s I L)].
  exact (Hu id r m (set_panic true s) (Hp s I) L).
Qed.

(** [control_op] touches the queues and the advertised limits, and the rest only through
    [emit_msd]. *)
Lemma control_op_only {A} (f : st -> A) a b c s :
  (forall v s, f (set_p_max_data v s) = f s) -> (forall v s, f (set_p_msd v s) = f s) ->
  (forall v s, f (set_p_msid v s) = f s) -> (forall v s, f (set_p_stop v s) = f s) ->
  (forall v s, f (set_p_reset v s) = f s) -> (forall v s, f (set_sent_max_data v s) = f s) ->
  (forall v s, f (set_sent_max_remote v s) = f s) ->
  exists s5, f s5 = f s /\ f (fst (fst (control_op a b c s))) = f (fst (emit_msd (p_msd s5) s5)).
Proof.
  intros Hmd Hmsd Hmsid Hstop Hreset Hsmd Hsmr. unfold control_op.
  set (s1 := if a then _ else s). set (s2 := if b then _ else s1). set (s3 := if c then _ else s2).
  set (s4 := set_p_stop [] _). set (p5 := if p_max_data s4 then _ else (s4, [])).
  assert (Q5 : f (fst p5) = f s).
  { subst p5 s4 s3 s2 s1. destruct a; destruct b; destruct c; destruct (p_max_data _); cbn [fst];
      rewrite ?Hsmd, ?Hmd, ?Hstop, ?Hreset, ?Hmsid, ?Hmsd, ?Hmd; reflexivity. }
  destruct p5 as [s5 fmd]. exists s5. split; [exact Q5|].
  destruct (emit_msd (p_msd s5) s5) as [s6 fmsd].
  assert (EM : forall d x, f (fst (emit_max_streams d x)) = f x).
  { intros d x. unfold emit_max_streams. destruct (pget d (p_msid x)); cbn [fst];
      rewrite ?Hsmr, ?Hmsid; reflexivity. }
  pose proof (EM 0 (set_p_msd [] s6)) as Q8. destruct (emit_max_streams 0 _) as [s8 f0].
  pose proof (EM 1 s8) as Q9. destruct (emit_max_streams 1 s8) as [s9 f1].
  cbn [fst] in Q8, Q9 |- *. rewrite Q9, Q8. apply Hmsd.
Qed.

(** [stream_freed] acts only by the seven kinds of step below: what they all keep, it keeps. *)
Section Frame.
  Variable P : st -> Prop.
  Hypothesis P_sendm : forall id s,
    P s -> alookup id (sendm s) = None -> P (set_sendm (aset id TNone (sendm s)) s).
  Hypothesis P_recvm : forall id t s,
    P s -> alookup id (recvm s) = None -> t = SNone \/ t = SFree ->
    P (set_recvm (aset id t (recvm s)) s).
  Hypothesis P_free : forall v s, P s -> P (set_free_recv v s).
  Hypothesis P_panic : forall s, P s -> P (set_panic true s).
  Hypothesis P_alloc : forall v s, P s -> P (set_alloc v s).
  Hypothesis P_max_remote : forall v s, P s -> P (set_max_remote v s).
  Hypothesis P_send_streams : forall v s, P s -> P (set_send_streams v s).

  Lemma insert_stream_pres remote id s : P s -> P (insert_stream remote id s).
  Proof.
    intro I. unfold insert_stream.
    set (s1 := if (sid_dir id =? 0) || negb remote then _ else s).
    assert (I1 : P s1).
    { subst s1. destruct ((sid_dir id =? 0) || negb remote); [|exact I].
      destruct (amem id (sendm s)) eqn:M; [apply P_panic, I|].
      apply P_sendm; [exact I|apply amem_look, M]. }
    destruct ((sid_dir id =? 0) || remote); [|exact I1].
    destruct (amem id (recvm s1)) eqn:M; [apply P_panic, I1|]. apply amem_look in M.
    destruct (0 <? free_recv s1); [apply P_free|]; apply P_recvm; auto.
  Qed.

  Lemma insert_remote_range_pres n d from s : P s -> P (insert_remote_range n d from s).
  Proof.
    revert from s. induction n as [|n IH]; intros from s I; cbn [insert_remote_range]; [exact I|].
    apply IH, insert_stream_pres, I.
  Qed.

  Lemma stream_freed_pres id half s : P s -> P (stream_freed id half s).
  Proof.
    intro I.
    assert (Pp : forall b x, P x -> P (set_panic_if b x))
      by (intros [|] x Ix; [apply P_panic|]; exact Ix).
    unfold stream_freed.
    set (s1 := if negb (sid_init id =? side s) then _ else s).
    assert (I1 : P s1).
    { subst s1. destruct (negb (sid_init id =? side s)); [|exact I].
      match goal with |- P (if ?c then _ else _) => destruct c end; [|exact I].
      unfold ensure_remote_streams.
      apply P_max_remote, P_alloc, insert_remote_range_pres, Pp, P_alloc, I. }
    destruct half; [|exact I1]. apply Pp, P_send_streams, I1.
  Qed.

  Lemma frame_pres :
    (forall remote id s, P s -> P (insert_stream remote id s)) /\
    (forall n d from s, P s -> P (insert_remote_range n d from s)) /\
    (forall id half s, P s -> P (stream_freed id half s)).
  Proof. exact (conj insert_stream_pres (conj insert_remote_range_pres stream_freed_pres)). Qed.
End Frame.

Lemma some_let {A B} (p : st * A) (k : st -> A -> B) r :
  (let '(s', o) := p in Some (k s' o)) = Some r -> r = k (fst p) (snd p).
Proof. destruct p. intro H. inversion H. reflexivity. Qed.

(** The STREAM premise sees the op (for [op_wf]), the [open] premise that its direction is 0 or 1. *)
Lemma step_core_pres (P : st -> Prop) op :
  (forall id s, P s -> P (see id s)) ->
  (forall r s, P s -> P (note_tx r s)) ->
  (forall id off len fin, op = [1; id; off; len; fin] ->
     forall b s, P s -> P (fst (received true id off len b s))) ->
  (forall id code final s, P s -> P (fst (received_reset true id code final s))) ->
  (forall id ordered budget s, P s -> P (fst (read_op true id ordered budget s))) ->
  (forall id code s, P s -> P (fst (stop_op true id code s))) ->
  (forall id s, P s -> P (fst (rreset_op id s))) ->
  (forall w s, P s -> P (fst (set_window_op w s))) ->
  (forall a b c s, P s -> P (fst (fst (control_op a b c s)))) ->
  (forall d s, d = 0 \/ d = 1 -> P s -> P (fst (open_op d s))) ->
  (forall d s, P s -> P (fst (accept_op d s))) ->
  (forall id code s, P s -> P (fst (sreset_op id code s))) ->
  (forall id s, P s -> P (fst (reset_acked_op id s))) ->
  forall s s' o id l, P s -> step_core true s op = Some (s', o, id, l) -> P s'.
Proof.
  intros Hsee Hntx H1 H2 H3 H4 H5 H6 H7 H8 H9 H12 H17 s s' o id l I H.
  assert (Hm : forall (o : list Z) x, P x -> P (match o with [0; i] => see i x | _ => x end)).
  { intros o0 x Ix. destruct o0 as [|[| |] [|i [|]]]; auto. }
  assert (Hd : forall x, (if x =? 0 then 0 else 1) = 0 \/ (if x =? 0 then 0 else 1) = 1)
    by (intro x; destruct (x =? 0); auto).
  unfold step_core in H. destruct op as [|c a]; [discriminate|].
  destruct (Z.eqb_spec c 1) as [->|_].
  { destruct a as [|x1 [|x2 [|x3 [|x4 [|]]]]]; try discriminate.
    apply some_let in H. inversion H. apply Hntx, (H1 x1 x2 x3 x4 eq_refl), Hsee, I. }
  destruct (c =? 2).
  { destruct a as [|x1 [|x2 [|x3 [|]]]]; try discriminate.
    apply some_let in H. inversion H. apply Hntx, H2, Hsee, I. }
  destruct (c =? 3).
  { destruct a as [|x1 [|x2 [|x3 [|]]]]; try discriminate.
    apply some_let in H. inversion H. apply H3, Hsee, I. }
  destruct (c =? 4).
  { destruct a as [|x1 [|x2 [|]]]; try discriminate.
    apply some_let in H. inversion H. apply H4, Hsee, I. }
  destruct (c =? 5).
  { destruct a as [|x1 [|]]; try discriminate.
    apply some_let in H. inversion H. apply H5, Hsee, I. }
  destruct (c =? 6).
  { destruct a as [|x1 [|]]; try discriminate. apply some_let in H. inversion H. apply H6, I. }
  destruct (c =? 7).
  { destruct a as [|x1 [|x2 [|x3 [|]]]]; try discriminate.
    specialize (H7 (negb (x1 =? 0)) (negb (x2 =? 0)) (negb (x3 =? 0)) s I).
    destruct (control_op _ _ _ _) as [[s2 r] l2]. inversion H; subst. exact H7. }
  destruct (c =? 8).
  { destruct a as [|x1 [|]]; try discriminate.
    apply some_let in H. inversion H. apply Hm, H8; [apply Hd|exact I]. }
  destruct (c =? 9).
  { destruct a as [|x1 [|]]; try discriminate. apply some_let in H. inversion H. apply Hm, H9, I. }
  destruct (c =? 12).
  { destruct a as [|x1 [|x2 [|]]]; try discriminate.
    apply some_let in H. inversion H. apply H12, I. }
  destruct (c =? 17).
  { destruct a as [|x1 [|]]; try discriminate. apply some_let in H. inversion H. apply H17, I. }
  discriminate.
Qed.

Lemma run_from_pres (P : st -> Prop) (W : list Z -> Prop) stepf :
  (forall s op, P s -> W op -> P (fst (stepf s op))) ->
  forall i s, P s -> Forall W i -> P (fst (run_from stepf s i)).
Proof.
  intros Hstep i. induction i as [|op r IH]; intros s I Wi; cbn [run_from fst]; [exact I|].
  inversion Wi; subst.
  pose proof (Hstep s op I H1) as I1. destruct (stepf s op) as [s1 o]. cbn [fst] in I1.
  pose proof (IH s1 I1 H2) as I2. destruct (run_from stepf s1 r) as [s2 os]. exact I2.
Qed.
