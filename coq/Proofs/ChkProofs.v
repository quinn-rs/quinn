(** Facts about checked u64 arithmetic (Lib/Chk.v). *)
From QV Require Import Lib.Tac Lib.Chk.
Open Scope Z_scope.

Lemma chk_some x y : chk x = Some y -> y = x /\ 0 <= x <= U64MAX.
Proof.
  unfold chk. destruct ((0 <=? x) && (x <=? U64MAX)) eqn:E; intro H; [|discriminate].
  inversion H; subst. split; [reflexivity|lia].
Qed.

Lemma cadd_some a b y : cadd a b = Some y -> y = a + b /\ 0 <= a + b <= U64MAX.
Proof. apply chk_some. Qed.

Lemma cmul_some a b y : cmul a b = Some y -> y = a * b /\ 0 <= a * b <= U64MAX.
Proof. apply chk_some. Qed.

Lemma csub_some a b y : csub a b = Some y -> y = a - b /\ 0 <= a - b <= U64MAX.
Proof. apply chk_some. Qed.

Lemma chk_in_range x : 0 <= x <= U64MAX -> chk x = Some x.
Proof. intro H. unfold chk. destruct ((0 <=? x) && (x <=? U64MAX)) eqn:E; [reflexivity|lia]. Qed.

Lemma b2z_nonneg b : 0 <= b2z b.
Proof. destruct b; cbn; lia. Qed.

(** Arguments of an op whose entries are all non-negative (u64/u16/bool values). *)
Definition wf_op (op : list Z) : Prop := Forall (fun x => 0 <= x) op.

Lemma nth_nonneg (a : list Z) k : Forall (fun x => 0 <= x) a -> 0 <= nth k a 0.
Proof.
  intro H. revert k. induction H as [|x a Hx Ha IH]; intros k.
  - destruct k; cbn [nth]; lia.
  - destruct k as [|k]; cbn [nth]; [lia|apply IH].
Qed.

Lemma wf_tail c a : wf_op (c :: a) -> Forall (fun x => 0 <= x) a.
Proof. intro H. inversion H; assumption. Qed.
