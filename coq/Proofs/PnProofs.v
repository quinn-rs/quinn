(** Truncation and [expand] (RFC 9000 A.3) are inverse inside the window of the chosen length. *)
From QV Require Import Lib.Tac Lib.Bytes Lib.Corr Model.PacketNumber Proofs.BytesProofs.
Open Scope Z_scope.

Lemma decode_encode_trunc len n :
  decode len (be_bytes len (n mod win len)) = Some (n mod win len).
Proof.
  unfold decode. rewrite be_bytes_length, Nat.ltb_irrefl.
  rewrite <- (be_bytes_length len (n mod win len)) at 1. rewrite firstn_all, be_val_small; [reflexivity|].
  apply Z.mod_pos_bound, Z.pow_pos_nonneg; lia.
Qed.

(** [n] and the candidate agree modulo [w] and both lie within a window of [e]: they are at most
    one window apart, and each correction fires exactly when it is needed. *)
Lemma expand_window w h n e :
  w = 2 * h -> 0 <= n -> 0 <= e -> e - h < n <= e + h ->
  let candidate := e / w * w + n mod w in
  (if (h <=? e) && (candidate <=? e - h) then candidate + w
   else if (e + h <? candidate) && (w <? candidate) then candidate - w else candidate) = n.
Proof.
  intros Hw Hn He Hwin. cbv zeta.
  pose proof (Z.div_mod e w ltac:(lia)) as De. pose proof (Z.mod_pos_bound e w ltac:(lia)) as Be.
  pose proof (Z.div_mod n w ltac:(lia)) as Dn. pose proof (Z.mod_pos_bound n w ltac:(lia)) as Bn.
  assert (0 <= e / w) by (apply Z.div_pos; lia).
  set (q := e / w) in *. set (r := e mod w) in *. set (q' := n / w) in *. set (m := n mod w) in *.
  (* with the quotients opaque the arithmetic is linear in [w * q] *)
  clearbody q r q' m.
  assert (q' - q < 2) by (apply (Z.mul_lt_mono_pos_l w); lia).
  assert (-2 < q' - q) by (apply (Z.mul_lt_mono_pos_l w); lia).
  assert (Hq : q' = q - 1 \/ q' = q \/ q' = q + 1) by lia.
  destruct ((h <=? e) && (q * w + m <=? e - h)) eqn:A;
    [|destruct ((e + h <? q * w + m) && (w <? q * w + m)) eqn:B];
    destruct Hq as [-> | [-> | ->]]; subst w; try lia.
  (* [n] one window below the candidate with no correction taken: then [n = 0] and [w <= e] *)
  destruct (Z.eq_dec q 0) as [E|E]; [rewrite E in *; lia|].
  assert (h * 1 <= h * q) by (apply Z.mul_le_mono_nonneg_l; lia). lia.
Qed.

Lemma win_half len : (1 <= len)%nat -> 0 < win len / 2 /\ win len = 2 * (win len / 2).
Proof.
  intros H. destruct len as [|k]; [lia|]. unfold win. rewrite Nat2Z.inj_succ, Z.pow_succ_r by lia.
  assert (0 < 256 ^ Z.of_nat k) by (apply Z.pow_pos_nonneg; lia). lia.
Qed.

Lemma expand_in_window len n e :
  (1 <= len)%nat -> 0 <= n -> 0 <= e ->
  e - win len / 2 < n <= e + win len / 2 ->
  expand len (n mod win len) e = n.
Proof.
  intros Hlen Hn He Hw. destruct (win_half len Hlen) as [Hh Heven].
  exact (expand_window (win len) (win len / 2) n e Heven Hn He Hw).
Qed.

Lemma pn_len_range n la len :
  pn_len n la = Some len -> (1 <= len <= 4)%nat /\ la <= n /\ 2 * (n - la) < win len.
Proof.
  unfold pn_len. destruct (n <? la) eqn:E; [discriminate|]. cbv zeta.
  destruct (_ <? 2 ^ 8) eqn:E1; [intros [= <-]; change (win 1) with (2 ^ 8); lia|].
  destruct (_ <? 2 ^ 16) eqn:E2; [intros [= <-]; change (win 2) with (2 ^ 16); lia|].
  destruct (_ <? 2 ^ 24) eqn:E3; [intros [= <-]; change (win 3) with (2 ^ 24); lia|].
  destruct (_ <? 2 ^ 32) eqn:E4; [intros [= <-]; change (win 4) with (2 ^ 32); lia|discriminate].
Qed.

Lemma pn_encode_some n la :
  0 <= la <= n -> 2 * (n - la) < 2 ^ 32 ->
  exists len, pn_len n la = Some len /\ encode n la = Some (len, be_bytes len (n mod win len)).
Proof.
  intros H1 H2. unfold encode, pn_len. replace (n <? la) with false by lia. cbv zeta.
  destruct (_ <? 2 ^ 8); [eauto|]. destruct (_ <? 2 ^ 16); [eauto|]. destruct (_ <? 2 ^ 24); [eauto|].
  destruct (_ <? 2 ^ 32) eqn:E4; [eauto|lia].
Qed.

Lemma pn_decode_expand len n e :
  (1 <= len)%nat -> 0 <= n -> 0 <= e -> e - win len / 2 < n <= e + win len / 2 ->
  exists t, decode len (be_bytes len (n mod win len)) = Some t /\ expand len t e = n.
Proof.
  intros Hlen Hn He Hw. eexists. split; [apply decode_encode_trunc|now apply expand_in_window].
Qed.

Lemma pn_roundtrip n la e :
  0 <= la <= n -> 2 * (n - la) < 2 ^ 32 -> 0 <= e ->
  exists len b,
    encode n la = Some (len, b) /\ length b = len /\
    (e - win len / 2 < n <= e + win len / 2 ->
     exists t, decode len b = Some t /\ expand len t e = n).
Proof.
  intros H1 H2 He. destruct (pn_encode_some n la H1 H2) as (len & Hl & ->).
  apply pn_len_range in Hl as [Hr _].
  do 2 eexists. split; [reflexivity|]. split; [apply be_bytes_length|].
  intros Hw. apply pn_decode_expand; lia.
Qed.

(** In protocol terms: the receiver expects [largest_received + 1]; it has received everything
    the sender saw acknowledged ([la < e]), and packets ahead of [n] by less than half the window
    may already have arrived ([e < n + hwin]). *)
Lemma pn_roundtrip_protocol n la e :
  0 <= la <= n -> 2 * (n - la) < 2 ^ 32 ->
  exists len b,
    encode n la = Some (len, b) /\
    (la < e -> e < n + win len / 2 ->
     exists t, decode len b = Some t /\ expand len t e = n).
Proof.
  intros H1 H2. destruct (pn_encode_some n la H1 H2) as (len & Hl & ->).
  apply pn_len_range in Hl as (Hr & _ & Hlt). destruct (win_half len ltac:(lia)) as [_ Heven].
  do 2 eexists. split; [reflexivity|]. intros Ha Hb. apply pn_decode_expand; lia.
Qed.

(** The deviation from RFC 9000 A.3 ([candidate > win] where the RFC has [>=]) is unreachable:
    [candidate = win] never coincides with [candidate > expected + hwin]. *)
Lemma expand_rfc_deviation_unreachable len t e :
  (1 <= len <= 4)%nat -> 0 <= e -> 0 <= t < win len ->
  let candidate := (e / win len) * win len + t in
  candidate = win len -> ~ (e + win len / 2 < candidate).
Proof.
  intros Hlen He Ht. cbv zeta. destruct (win_half len ltac:(lia)) as [Hh Heven].
  set (w := win len) in *. clearbody w. intros Hc.
  pose proof (Z.div_mod e w ltac:(lia)) as De. pose proof (Z.mod_pos_bound e w ltac:(lia)) as Be.
  assert (0 <= e / w) by (apply Z.div_pos; lia).
  set (q := e / w) in *. set (r := e mod w) in *. clearbody q r.
  (* [q * w + t = w] with [t < w] leaves [q = 1]: the expected number is a window ahead *)
  assert (q = 1) by nia. subst q. lia.
Qed.
