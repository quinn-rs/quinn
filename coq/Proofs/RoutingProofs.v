(** C09 at component level: consequences of the routing invariant for all histories. *)
From QV Require Import Lib.Tac Lib.Corr Model.Routing Proofs.RoutingMap Proofs.RoutingInv
  Proofs.RoutingFrame.
Open Scope Z_scope.

(** The endpoint state after a history of hook operations (None: no endpoint yet, or a panic). *)
Definition state_after (i : ops) : option st :=
  match fst (sim_run fixed NoEp i) with Ep s => Some s | _ => None end.

Definition sim_inv (x : sim) : Prop := match x with Ep s => Inv s | _ => True end.

Lemma sim_step_inv x op : sim_inv x -> sim_inv (fst (sim_step fixed x op)).
Proof.
  intros Hx. unfold sim_step. destruct op as [|[|p|p] args].
  - destruct x; exact Hx.
  - destruct x; try exact Hx; (destruct args as [|len [|pref [|? ?]]]; try exact Hx;
      destruct (in_range 0 20 len); [apply Inv_init | exact Hx]).
  - destruct x as [|s|]; try exact Hx.
    destruct (step_v fixed s _) as [[s' o]|] eqn:E; [exact (step_inv _ _ _ _ Hx E) | exact Logic.I].
  - (* a negative opcode is rejected, by evaluation of [step_v] *)
    destruct x; exact Hx.
Qed.

Lemma sim_run_inv i : forall x, sim_inv x -> sim_inv (fst (sim_run fixed x i)).
Proof.
  induction i as [|op i IH]; intros x I; cbn [sim_run fst]; auto.
  pose proof (sim_step_inv x op I) as I1.
  destruct (sim_step fixed x op) as [x1 o]. cbn [fst] in I1.
  specialize (IH x1 I1). destruct (sim_run fixed x1 i) as [x2 os]. exact IH.
Qed.

(** The invariant holds in every reachable state: any number of connects, accepts, issuances,
    retirements in any order, drains, slot reuse, for every CID length. *)
Theorem reachable_inv i s : state_after i = Some s -> Inv s.
Proof.
  unfold state_after. intros H. pose proof (sim_run_inv i NoEp I) as R.
  destruct (fst (sim_run fixed NoEp i)); inversion H; subst. exact R.
Qed.

(** [index_sound]: an entry of [connection_ids] names a live connection -- the current occupant
    (incarnation) of the slot -- that holds the CID in its [loc_cids], i.e. issued and not retired. *)
Theorem index_sound i s c ch :
  state_after i = Some s -> lookup c (s_ids s) = Some ch ->
  exists m seq, live s ch m /\ lookup seq (m_loc m) = Some c /\ m_inc m < s_epoch s.
Proof.
  intros R H. apply reachable_inv in R. destruct (I_ids _ R _ _ H) as [m [L [k Hk]]].
  exists m, k. repeat split; auto. eapply I_inc; eauto.
Qed.

(** [index_complete]: every issued, unretired, non-empty CID of a live connection routes to it. *)
Theorem index_complete i s ch m seq c :
  state_after i = Some s -> live s ch m -> lookup seq (m_loc m) = Some c -> c <> [] ->
  lookup c (s_ids s) = Some ch.
Proof.
  intros R L H N. apply reachable_inv in R. destruct (I_ok _ R _ _ L) as [A _ _ _]. eauto.
Qed.

Theorem cids_disjoint i s ch1 m1 k1 ch2 m2 k2 c :
  state_after i = Some s -> live s ch1 m1 -> live s ch2 m2 ->
  lookup k1 (m_loc m1) = Some c -> lookup k2 (m_loc m2) = Some c -> c <> [] ->
  ch1 = ch2 /\ k1 = k2.
Proof.
  intros R L1 L2 H1 H2 N. apply reachable_inv in R.
  destruct (I_ok _ R _ _ L1) as [A1 B1 _ _]. destruct (I_ok _ R _ _ L2) as [A2 _ _ _].
  pose proof (A1 _ _ H1 N) as E1. rewrite (A2 _ _ H2 N) in E1. injection E1 as <-.
  split; [reflexivity|]. rewrite L1 in L2. injection L2 as <-. eauto.
Qed.

(** A handle occurs in no routing map unless it is live. *)
Definition mentions (s : st) (ch : Z) : Prop :=
  (exists k, lookup k (s_ids s) = Some ch) \/ (exists k, lookup k (s_init s) = Some (RConn ch)) \/
  (exists k, lookup k (s_in s) = Some ch) \/ (exists k, lookup k (s_out s) = Some ch) \/
  (exists k, lookup k (s_tok s) = Some ch).

Lemma mentions_entry s ch : mentions s ch -> exists kd k, entry kd s k ch.
Proof.
  intros [[k H]|[[k H]|[[k H]|[[k H]|[k H]]]]];
    [exists Kids | exists Kinit | exists Kin | exists Kout | exists Ktok]; exists k; exact H.
Qed.

Lemma mentions_live s ch : Inv s -> mentions s ch -> exists m, live s ch m.
Proof.
  intros I M. destruct (mentions_entry s ch M) as (kd & k & E).
  destruct (Inv_routes s kd k ch I E) as [m [L _]]. eauto.
Qed.

Lemma drained_not_live s ch s' : do_drained fixed s ch = Some s' -> lookup [ch] (s_conns s') = None.
Proof.
  unfold do_drained, slab_remove.
  destruct (lookup [ch] (s_conns s)) as [m|] eqn:L; [|intros [= <-]; exact L].
  intros H. apply index_remove_spec in H. destruct H as [[Ec _] _]. rewrite Ec. apply lookup_remove_eq.
Qed.

(** [no_stale_after_drain]: after [Drained(ch)] no map contains [ch], so the next occupant of the
    slot starts with no routes at all. *)
Theorem no_stale_after_drain i s ch s' o :
  state_after i = Some s -> step s [8; ch] = Some (s', o) -> ~ mentions s' ch.
Proof.
  intros R H. apply reachable_inv in R. pose proof (step_inv _ _ _ _ R H) as I'.
  unfold step, step_v in H. cbn [Z.eqb Pos.eqb] in H.
  destruct (0 <=? ch) eqn:Ech.
  - apply some_pair_inv in H. intros M. destruct (mentions_live _ _ I' M) as [m L].
    rewrite (drained_not_live _ _ _ H) in L. discriminate.
  - inversion H; subst. intros M. destruct (mentions_live _ _ R M) as [m L].
    destruct (I_range _ R _ _ L) as [Rg _]. lia.
Qed.

(** A connection created in a (possibly reused) slot owns exactly the routes it was given:
    every route to the new handle was claimed by the new record. *)
Theorem new_handle_fresh i s : state_after i = Some s -> ~ mentions s (vacant_key s).
Proof.
  intros R M. apply reachable_inv in R. destruct (mentions_live _ _ R M) as [m L].
  rewrite (vacant_not_live _ R) in L. discriminate.
Qed.

(** [route_unique]: what [ConnectionIndex::get] can return.  A datagram is handed to [ch] only if
    [ch] is live and (1) it holds the non-empty destination CID, or (2) the packet is Initial/0-RTT
    and the DCID is the one that created [ch] (a server connection), or (3) the DCID is empty and
    [ch] claimed the packet's address tuple, or (4) the trailing bytes are the reset token that
    [ch] registered for the packet's remote. *)
Theorem route_unique i s kind r l t dcid ch :
  state_after i = Some s -> get s kind r l t dcid = Some (RConn ch) ->
  exists m, live s ch m /\
    ((dcid <> [] /\ exists seq, lookup seq (m_loc m) = Some dcid) \/
     ((kind = 1 \/ kind = 2) /\ m_server m = true /\ m_init m = dcid) \/
     (dcid = [] /\ m_server m = true /\ m_remote m = r /\ m_local m = l) \/
     (dcid = [] /\ m_server m = false /\ m_remote m = r) \/
     m_tok m = Some (r, t)).
Proof.
  intros R. apply reachable_inv in R. unfold get.
  destruct (if is_nil dcid then None else lookup dcid (s_ids s)) as [c0|] eqn:E1.
  { intros H. inversion H; subst. destruct dcid; [discriminate|]. cbn [is_nil] in E1.
    destruct (I_ids _ R _ _ E1) as [m [L [k Hk]]]. exists m. split; [exact L|]. left. split; [discriminate | eauto]. }
  destruct (if (kind =? 1) || (kind =? 2) then lookup dcid (s_init s) else None) as [rt|] eqn:E2.
  { intros H. inversion H; subst. destruct ((kind =? 1) || (kind =? 2)) eqn:K; [|discriminate].
    destruct (I_init _ R _ _ E2) as [m [L [Sv Ei]]]. exists m. split; [exact L|]. right. left.
    repeat split; auto. lia. }
  destruct (if is_nil dcid then match lookup [r; l] (s_in s) with Some c => Some c | None => lookup [r] (s_out s) end else None) as [c0|] eqn:E3.
  { intros H. inversion H; subst. destruct dcid; [|discriminate]. cbn [is_nil] in E3.
    destruct (lookup [r; l] (s_in s)) as [c1|] eqn:E4.
    - inversion E3; subst. destruct (I_in _ R _ _ E4) as [m [L [Sv Ek]]]. inversion Ek; subst.
      exists m. split; [exact L|]. right. right. left. auto.
    - destruct (I_out _ R _ _ E3) as [m [L [Sv Ek]]]. inversion Ek; subst.
      exists m. split; [exact L|]. right. right. right. left. auto. }
  destruct (lookup [r; t] (s_tok s)) as [c0|] eqn:E5; [|discriminate].
  intros H. inversion H; subst. destruct (I_tok _ R _ _ E5) as [m [L [r0 [t0 [Ht Ek]]]]]. inversion Ek; subst.
  exists m. split; [exact L|]. right. right. right. right. exact Ht.
Qed.

(** Short-header packets with a non-empty CID known to the index go to its one owner, whatever
    the address and trailing bytes. *)
Theorem route_owner i s ch m seq c r l t :
  state_after i = Some s -> live s ch m -> lookup seq (m_loc m) = Some c -> c <> [] ->
  get s 0 r l t c = Some (RConn ch).
Proof.
  intros R L H N. unfold get. destruct c as [|b c]; [congruence|]. cbn [is_nil].
  rewrite (index_complete i s ch m seq (b :: c) R L H N). reflexivity.
Qed.

(** Fresh incarnation numbers: the occupant of a reused slot is a different incarnation. *)
Theorem incarnation_fresh i s ch m :
  state_after i = Some s -> live s ch m -> m_inc m < s_epoch s.
Proof. intros R L. apply reachable_inv in R. eapply I_inc; eauto. Qed.

(** F10: two zero-length-CID client connections to one remote; draining the first one un-routes
    the second (which owns the tuple). *)
Definition f10_history : ops :=
  [[0; 0; 0]; [1; 5; 0; 0]; [1; 5; 0; 0]; [2; 0; 5; 0; 0; 0; 0]; [8; 0]; [2; 0; 5; 0; 0; 0; 0]].

Lemma f10_refuted :
  run_v original f10_history = [[0]; [0; 0]; [0; 1]; [1; 1]; [0; 1]; [0; 0]] /\
  oracle f10_history (run_v original f10_history) = false.
Proof. vm_compute. split; reflexivity. Qed.

Lemma f10_fixed :
  run f10_history = [[0]; [0; 0]; [0; 1]; [1; 1]; [0; 1]; [1; 1]] /\
  oracle f10_history (run f10_history) = true.
Proof. vm_compute. split; reflexivity. Qed.

(** The same unconditional removal, for reset tokens: the peer hands one token to two connections. *)
Definition tok_history : ops :=
  [[0; 4; 0]; [1; 5; 0; 1; 1; 1; 1; 1]; [1; 5; 0; 1; 2; 2; 2; 2]; [7; 0; 5; 9]; [7; 1; 5; 9];
   [8; 0]; [2; 0; 5; 0; 9; 0; 4; 7; 7; 7; 7]].

Lemma tok_refuted :
  oracle tok_history (run_v original tok_history) = false /\
  oracle tok_history (run tok_history) = true.
Proof. vm_compute. split; reflexivity. Qed.

(** connect() leaking a CID when the crypto session cannot be started: the index then routes
    the CID to a handle that is not live ([index_sound] fails), and to whoever takes the slot next. *)
Definition leak_history : ops :=
  [[0; 4; 0]; [1; 5; 1; 1; 1; 2; 3; 4]; [2; 0; 5; 0; 0; 0; 4; 1; 2; 3; 4];
   [1; 6; 0; 1; 9; 9; 9; 9]; [2; 0; 5; 0; 0; 0; 4; 1; 2; 3; 4]].

Lemma leak_refuted :
  run_v original leak_history = [[0]; [1; 4]; [1; 0]; [0; 0]; [1; 0]] /\
  oracle leak_history (run_v original leak_history) = false.
Proof. vm_compute. split; reflexivity. Qed.

Lemma leak_fixed :
  run leak_history = [[0]; [1; 4]; [3; 0]; [0; 0]; [3; 0]] /\
  oracle leak_history (run leak_history) = true.
Proof. vm_compute. split; reflexivity. Qed.

(** Non-vacuity: a reachable state after three connections of both roles (two still live), a
    retired CID, a reused slot and a registered token. *)
Definition example_history : ops :=
  [[0; 4; 1];
   [1; 5; 0; 1; 1; 1; 1; 1];
   [2; 1; 6; 1; 0; 0; 8; 8; 8; 8; 8; 8; 8; 8; 8];
   [3; 0; 0; 2; 2; 2; 2; 2; 3; 3; 3; 3];
   [5; 0; 2; 3; 1; 1; 1; 1; 4; 4; 4; 4; 5; 5; 5; 5];
   [6; 0; 1; 0; 0];
   [8; 1];
   [1; 7; 0; 1; 4; 4; 4; 4];
   [7; 1; 7; 3];
   [2; 0; 9; 0; 0; 0; 4; 5; 5; 5; 5];
   [2; 0; 9; 0; 0; 0; 4; 4; 4; 4; 4];
   [2; 0; 9; 0; 0; 0; 4; 2; 2; 2; 2];
   [2; 0; 7; 0; 3; 0; 4; 6; 6; 6; 6]].

Lemma example_run :
  run example_history =
  [[0]; [0; 0]; [2; 0]; [0; 1]; [0; 2; 1; 4; 4; 4; 4; 2; 5; 5; 5; 5]; [0]; [0; 1]; [0; 1]; [0];
   [1; 0]; [1; 1]; [3; 0]; [1; 1]] /\
  oracle example_history (run example_history) = true /\
  (exists s, state_after example_history = Some s /\ size (s_conns s) = 2 /\ size (s_ids s) = 3).
Proof. vm_compute. repeat split; try reflexivity. eexists. repeat split; reflexivity. Qed.

(** With zero-length CIDs an Incoming from a tuple that a live server
    connection owns takes the tuple over when accepted; if its first packet is then rejected the
    short-lived connection is drained and the tuple is unowned -- the older connection does not get
    it back ("last claimant keeps the tuple").  The ledger records the short-lived claimant. *)
Definition takeover_history : ops :=
  [[0; 0; 0]; [2; 1; 4; 0; 0; 0; 8; 1; 1; 1; 1; 1; 1; 1; 1]; [3; 0; 0; 0];
   [2; 0; 4; 0; 0; 0; 0];
   [2; 1; 4; 0; 0; 1; 8; 2; 2; 2; 2; 2; 2; 2; 2]; [3; 1; 0; 0];
   [2; 0; 4; 0; 0; 0; 0]].

Lemma takeover_run :
  run takeover_history = [[0]; [2; 0]; [0; 0]; [1; 0]; [2; 1]; [1; 3]; [0; 0]] /\
  oracle takeover_history (run takeover_history) = true.
Proof. vm_compute. split; reflexivity. Qed.
