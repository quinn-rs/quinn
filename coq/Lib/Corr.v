(** Generic correspondence checker (trusted glue, see DESIGN §2.2).

    Every component model exposes
      run    : ops -> outs          the executable model on integer-encoded operations
      oracle : ops -> outs -> bool  the property's observable conclusion, evaluated on the
                                    outputs of the IMPLEMENTATION (used by the failing-input search)
    The harness writes a [cases.v] holding (ops, implementation outputs) pairs and evaluates
    [failures run oracle cases] with [vm_compute].  Codes: 1 = model and implementation differ but
    the property's oracle holds on the implementation's outputs; 2 = the oracle fails on the
    implementation's outputs (a concrete failing input). *)
From Coq Require Import ZArith List Bool.
Import ListNotations.
Open Scope Z_scope.

Definition ops := list (list Z).
Definition outs := list (list Z).

Fixpoint lz_eqb (a b : list Z) : bool :=
  match a, b with
  | [], [] => true
  | x :: a', y :: b' => Z.eqb x y && lz_eqb a' b'
  | _, _ => false
  end.

Fixpoint llz_eqb (a b : list (list Z)) : bool :=
  match a, b with
  | [], [] => true
  | x :: a', y :: b' => lz_eqb x y && llz_eqb a' b'
  | _, _ => false
  end.

Definition check_case (run : ops -> outs) (oracle : ops -> outs -> bool)
           (c : ops * outs) : Z :=
  let '(i, o) := c in
  if oracle i o then (if llz_eqb (run i) o then 0 else 1) else 2.

Fixpoint failures_from (k : Z) (run : ops -> outs) (oracle : ops -> outs -> bool)
         (cs : list (ops * outs)) : list (Z * Z) :=
  match cs with
  | [] => []
  | c :: cs' =>
      let r := check_case run oracle c in
      let rest := failures_from (k + 1) run oracle cs' in
      if Z.eqb r 0 then rest else (k, r) :: rest
  end.

Definition failures := failures_from 0.

(** Output of a case in which the implementation panicked. *)
Definition PANIC : list Z := [-999].

Lemma lz_eqb_eq a b : lz_eqb a b = true <-> a = b.
Proof.
  revert b; induction a as [|x a IH]; intros [|y b]; simpl; split; intro H;
    try reflexivity; try discriminate.
  - apply andb_true_iff in H as [H1 H2]. apply Z.eqb_eq in H1. apply IH in H2. congruence.
  - inversion H; subst. apply andb_true_iff; split; [apply Z.eqb_refl | now apply IH].
Qed.

Lemma llz_eqb_eq a b : llz_eqb a b = true <-> a = b.
Proof.
  revert b; induction a as [|x a IH]; intros [|y b]; simpl; split; intro H;
    try reflexivity; try discriminate.
  - apply andb_true_iff in H as [H1 H2]. apply lz_eqb_eq in H1. apply IH in H2. congruence.
  - inversion H; subst. apply andb_true_iff; split; [now apply lz_eqb_eq | now apply IH].
Qed.

Lemma lz_eqb_refl k : lz_eqb k k = true.
Proof. apply lz_eqb_eq. reflexivity. Qed.

Lemma lz_eqb_neq a b : lz_eqb a b = false <-> a <> b.
Proof.
  split.
  - intros H E. apply lz_eqb_eq in E. congruence.
  - intros H. destruct (lz_eqb a b) eqn:E; [apply lz_eqb_eq in E; contradiction | reflexivity].
Qed.
